(* C02 over Gen/Sites.v: writes of the block application go through its sql.Tx, reads of the committed
   database are the expected ones; durability settings; a height is recorded once. *)
From Coq Require Import String List Bool.
From Gen Require Import Sites.
From Model Require Import SitesSpec.
Import ListNotations.
Open Scope string_scope.
From Lemmas Require Export SitesRoots.

(* every write reachable from the block application goes through the block's sql.Tx *)
Lemma sync_writes_on_tx :
  forallb (fun r => (eff_handle r =? "tx") && (eff_origin r =? "root")) (filter is_write effective_sql) = true.
Proof. vm_compute; reflexivity. Qed.

Lemma sync_writes_on_tx_forall :
  forall r, In r effective_sql -> is_write r = true -> eff_handle r = "tx" /\ eff_origin r = "root".
Proof.
  intros r Hin Hw.
  pose proof (proj1 (forallb_forall _ _) sync_writes_on_tx r (proj2 (filter_In _ _ _) (conj Hin Hw))) as H.
  apply andb_true_iff in H as [H1 H2]. split; apply String.eqb_eq; assumption.
Qed.

Lemma sync_handles_known : check_sync_handles_known = true.
Proof. vm_compute; reflexivity. Qed.

Lemma sync_handles_known_forall :
  forall r, In r effective_sql -> on_tx r = true \/ on_pool r = true.
Proof. intros r Hin. apply orb_true_iff, (proj1 (forallb_forall _ _) sync_handles_known r Hin). Qed.

(* the reads that see the committed database are exactly the expected ones *)
Lemma sync_pool_reads_expected :
  forallb (fun r => mem (eff_origin r) expected_pool_readers) (filter on_pool effective_sql) = true.
Proof. vm_compute; reflexivity. Qed.

Lemma sync_pool_reads_expected_forall :
  forall r, In r effective_sql -> eff_handle r = "pool" ->
            is_read r = true /\ In (eff_origin r) expected_pool_readers.
Proof.
  intros r Hin Hp.
  assert (Hpool : on_pool r = true) by (unfold on_pool; rewrite Hp; reflexivity).
  split.
  - destruct (is_read r) eqn:E; [reflexivity|].
    assert (Hw : is_write r = true) by (unfold is_write; rewrite E; reflexivity).
    destruct (sync_writes_on_tx_forall r Hin Hw) as [Ht _]. rewrite Hp in Ht. discriminate Ht.
  - apply mem_In, (proj1 (forallb_forall _ _) sync_pool_reads_expected), filter_In. split; assumption.
Qed.

(* each expected reader is still there (a pool read that was moved to the transaction is noticed) *)
Lemma sync_pool_readers_present : check_sync_pool_readers_present = true.
Proof. vm_compute; reflexivity. Qed.

(* the callers of the pool readers inside the block application are exactly the expected ones *)
Lemma pool_reader_calls_expected : check_pool_reader_calls = true.
Proof. vm_compute; reflexivity. Qed.

Lemma journal_on_disk : check_journal_on_disk = true.
Proof. vm_compute; reflexivity. Qed.
Lemma synchronous_on : check_synchronous_on = true.
Proof. vm_compute; reflexivity. Qed.

(* a height is recorded once *)
Lemma height_mark_plain_insert : check_height_mark_plain_insert = true.
Proof. vm_compute; reflexivity. Qed.
