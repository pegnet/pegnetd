(* C01 (iteration order) over Gen/Sites.v: the range loops over maps and the sort calls are the expected
   ones, and each expected one is there. *)
From Coq Require Import List.
From Gen Require Import Sites.
From Model Require Import SitesSpec.
Import ListNotations.
Open Scope string_scope.
From Lemmas Require Export SitesRoots.

Lemma map_ranges_expected :
  forallb (fun k => mem2 k expected_map_ranges) map_range_keys = true.
Proof. vm_compute; reflexivity. Qed.

Lemma map_ranges_expected_forall :
  forall f t c x, In (f, t, c, x) map_ranges -> In (f, c) expected_map_ranges.
Proof.
  intros f t c x Hin. apply mem2_In, (proj1 (forallb_forall _ _) map_ranges_expected).
  unfold map_range_keys. apply in_map_iff. exists (f, t, c, x). split; [reflexivity|exact Hin].
Qed.

Lemma map_ranges_present :
  forallb (fun k => mem2 k map_range_keys) expected_map_ranges = true.
Proof. vm_compute; reflexivity. Qed.

Lemma sort_calls_expected :
  forallb (fun k => mem2 k expected_sort_calls) sort_call_keys = true.
Proof. vm_compute; reflexivity. Qed.

Lemma sort_calls_present :
  forallb (fun k => mem2 k sort_call_keys) expected_sort_calls = true.
Proof. vm_compute; reflexivity. Qed.

