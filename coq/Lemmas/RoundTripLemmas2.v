(* Lemmas/RoundTripLemmas2.v — C20 (b): decode (encode b) = Some b.
   Tree level (decode_batch_j (batch_j b) = Some b), then the composition with the parser round
   trip of Lemmas/RoundTripLemmas.v.
   [stdpp.countable.encode] is in scope wherever Model.Db is imported: the model's encoder is
   written [Codec.encode]. *)

From Model Require Import Codec Db.
From Lemmas Require Import CodecLemmas RoundTripLemmas.
From Gen Require Import Consts.
Import ListNotations.
Open Scope list_scope.
Open Scope Z_scope.

Definition tk (t : Z) : bool := (0 <? t) && (t <? PTickerMax).

Definition ticker_range : list Z := map Z.of_nat (seq 1 (Z.to_nat (PTickerMax - 1))).

Definition opt_is (o : option Z) (t : Z) : bool := match o with Some t' => t' =? t | None => false end.

Lemma ticker_facts :
  forallb (fun t => clean_str (ticker_string t)
                    && opt_is (decode_quoted_ticker (JStr (ticker_string t))) t
                    && opt_is (decode_raw_ticker (JStr (ticker_string t))) t) ticker_range = true.
Proof. vm_compute. reflexivity. Qed.

Lemma opt_is_eq o t : opt_is o t = true -> o = Some t.
Proof. destruct o as [t'|]; cbn [opt_is]; [|discriminate]. intros H. f_equal. lia. Qed.

Lemma tk_iff t : tk t = true <-> 0 < t < PTickerMax.
Proof. unfold tk. rewrite andb_true_iff, !Z.ltb_lt. reflexivity. Qed.

Lemma tk_in_range t : tk t = true -> In t ticker_range.
Proof.
  intros H. apply tk_iff in H. unfold ticker_range, PTickerMax in *.
  assert (E : t = Z.of_nat (Z.to_nat t)) by lia. rewrite E. apply in_map. apply in_seq. lia.
Qed.

Theorem ticker_roundtrip t : tk t = true ->
  clean_str (ticker_string t) = true /\
  decode_quoted_ticker (JStr (ticker_string t)) = Some t /\
  decode_raw_ticker (JStr (ticker_string t)) = Some t.
Proof.
  intros H. pose proof ticker_facts as F. rewrite forallb_forall in F.
  specialize (F t (tk_in_range t H)).
  apply andb_true_iff in F as [F F3]. apply andb_true_iff in F as [F1 F2].
  split; [exact F1|]. split; apply opt_is_eq; assumption.
Qed.

Lemma decode_all_map {A} (f : jv -> option A) (g : A -> jv) l :
  (forall x, In x l -> f (g x) = Some x) -> decode_all f (map g l) = Some l.
Proof.
  induction l as [|x r IH]; intros H; [reflexivity|]. cbn [map decode_all].
  rewrite (H x (or_introl eq_refl)). rewrite IH; [reflexivity|]. intros y I. apply H. right. exact I.
Qed.

(* which batches the encoder can express:
   input type is a ticker; amounts are uint64; exactly one of: transfers (non-empty, conversion
   field 0) or a conversion ticker (no transfers) *)
Definition tx_encodable (t : tx) : bool :=
  tk (tx_type t) && u64 (tx_amt t) && forallb (fun tr => u64 (tr_amt tr)) (tx_transfers t) &&
  match tx_transfers t with [] => tk (tx_conv t) | _ => tx_conv t =? 0 end.
Definition batch_encodable (b : batch) : bool :=
  u64 (b_version b) && forallb tx_encodable (b_txs b).

Definition tx_addrs (t : tx) : list Z := tx_addr t :: map tr_addr (tx_transfers t).
Definition batch_addrs (b : batch) : list Z := flat_map tx_addrs (b_txs b).

Section RoundTrip.
  Variable text_of_addr : Z -> bytes.
  Variable addr_of_text : bytes -> option Z.

  Definition addr_ok (a : Z) : Prop :=
    addr_of_text (text_of_addr a) = Some a /\ clean_str (text_of_addr a) = true.

  Lemma decode_addr_rt a : addr_ok a -> decode_addr addr_of_text (JStr (text_of_addr a)) = Some a.
  Proof. intros [H C]. cbn [decode_addr]. rewrite (unquote_clean _ C). exact H. Qed.

  (* the decoders on the objects the encoder builds: the lookups compute, the lengths add up *)
  Lemma decode_tuple_rt tr : addr_ok (tr_addr tr) -> u64 (tr_amt tr) = true ->
    decode_tuple addr_of_text (tuple_j text_of_addr tr) = Some tr.
  Proof.
    intros A U. unfold tuple_j. apply decode_tuple_iff. eexists _, _, _. do 3 (split; [reflexivity|]).
    split; [exact (decode_addr_rt _ A)|]. split; [exact (decode_u64_dec_of _ U)|].
    rewrite plen_obj. unfold wsum, mweight. cbn [map list_sum fold_right fst snd k_address k_amount length]. lia.
  Qed.

  Lemma decode_input_rt t : addr_ok (tx_addr t) -> u64 (tx_amt t) = true -> tk (tx_type t) = true ->
    decode_typed_tuple addr_of_text (input_j text_of_addr t) = Some (tx_addr t, tx_amt t, tx_type t).
  Proof.
    intros A U T. destruct (ticker_roundtrip _ T) as (_ & Dq & _).
    unfold input_j. apply decode_typed_tuple_iff. eexists _, _, _. split; [reflexivity|]. split.
    { cbn [decode_type_members].
      assert (K1 : key_is k_type k_type = true) by reflexivity.
      assert (K2 : key_is k_type k_amount = false) by reflexivity.
      assert (K3 : key_is k_type k_address = false) by reflexivity.
      rewrite K1, K2, K3, Dq. reflexivity. }
    do 2 (split; [reflexivity|]). split; [exact (decode_addr_rt _ A)|]. split; [exact (decode_u64_dec_of _ U)|].
    rewrite plen_obj. unfold wsum, mweight.
    cbn [map list_sum fold_right fst snd k_address k_amount k_type length]. rewrite !plen_str. lia.
  Qed.

  Theorem decode_transaction_rt t : (forall a, In a (tx_addrs t) -> addr_ok a) -> tx_encodable t = true ->
    decode_transaction addr_of_text (tx_j text_of_addr t) = Some t.
  Proof.
    intros A E. unfold tx_encodable in E.
    apply andb_true_iff in E as [E E4]. apply andb_true_iff in E as [E E3]. apply andb_true_iff in E as [E1 E2].
    pose proof (decode_input_rt t (A _ (or_introl eq_refl)) E2 E1) as Di.
    apply decode_transaction_iff. unfold tx_j, is_conversion.
    destruct t as [a ty n trs cv]. cbn [tx_addr tx_type tx_amt tx_transfers tx_conv tx_addrs] in *.
    destruct trs as [|tr trs].
    - destruct (ticker_roundtrip cv E4) as (_ & _ & Dr). unfold tk in E4. rewrite E4.
      destruct (Z.eqb_spec cv 0) as [->|N]; [discriminate|]. cbn [app].
      eexists _, _. do 2 (split; [reflexivity|]). split; [exact Di|]. split; [reflexivity|]. split; [exact Dr|].
      change (jlookup k_metadata _) with (@None jv).
      change (jlookup k_conversion _) with (Some (JStr (ticker_string cv))).
      rewrite plen_obj. unfold wsum, mweight, plen_opt.
      cbn [map list_sum fold_right fst snd k_input k_conversion length]. lia.
    - apply Z.eqb_eq in E4. subst cv. cbn [Z.eqb app].
      eexists _, _. do 2 (split; [reflexivity|]). split; [exact Di|]. split; [|split; [reflexivity|]].
      + change (decode_all (decode_tuple addr_of_text) (map (tuple_j text_of_addr) (tr :: trs)) = Some (tr :: trs)).
        apply decode_all_map. intros x Ix. apply decode_tuple_rt.
        * apply A. right. apply in_map. exact Ix.
        * rewrite forallb_forall in E3. apply E3. exact Ix.
      + change (jlookup k_metadata _) with (@None jv).
        change (jlookup k_transfers _) with (Some (JArr (map (tuple_j text_of_addr) (tr :: trs)))).
        rewrite plen_obj. unfold wsum, mweight, plen_opt.
        cbn [map list_sum fold_right fst snd k_input k_transfers length]. lia.
  Qed.

  Theorem decode_batch_j_rt b : (forall a, In a (batch_addrs b) -> addr_ok a) -> batch_encodable b = true ->
    decode_batch_j addr_of_text (batch_j text_of_addr b) = Some b.
  Proof.
    intros A E. unfold batch_encodable in E. apply andb_true_iff in E as [Ev Et].
    unfold batch_j. apply decode_batch_j_iff. eexists _, _, _. do 3 (split; [reflexivity|]).
    split; [exact (decode_u64_dec_of _ Ev)|]. split.
    - cbn [decode_array]. apply decode_all_map. intros t It. apply decode_transaction_rt.
      + intros a Ia. apply A. unfold batch_addrs. apply in_flat_map. exists t. split; assumption.
      + rewrite forallb_forall in Et. apply Et. exact It.
    - rewrite plen_obj. unfold wsum, mweight.
      cbn [map list_sum fold_right fst snd k_version k_transactions length]. lia.
  Qed.

  Lemma pr_tuple_j tr : addr_ok (tr_addr tr) -> u64 (tr_amt tr) = true ->
    pr_jv (tuple_j text_of_addr tr) = true.
  Proof.
    intros [_ C] U. unfold tuple_j. cbn [pr_jv forallb fst snd]. rewrite C, (dec_of_canon _ U). reflexivity.
  Qed.

  Lemma pr_tx_j t : (forall a, In a (tx_addrs t) -> addr_ok a) -> tx_encodable t = true ->
    pr_jv (tx_j text_of_addr t) = true.
  Proof.
    intros A E. unfold tx_encodable in E.
    apply andb_true_iff in E as [E E4]. apply andb_true_iff in E as [E E3]. apply andb_true_iff in E as [E1 E2].
    destruct (A _ (or_introl eq_refl)) as [_ Ca].
    destruct (ticker_roundtrip _ E1) as [Ct _].
    assert (Pi : pr_jv (input_j text_of_addr t) = true).
    { unfold input_j. cbn [pr_jv forallb fst snd]. rewrite Ca, (dec_of_canon _ E2), Ct. reflexivity. }
    unfold tx_j. destruct t as [a ty n trs cv]. cbn [tx_addr tx_type tx_amt tx_transfers tx_conv tx_addrs] in *.
    destruct trs as [|tr trs].
    - destruct (ticker_roundtrip _ E4) as [Cc _]. unfold tk in E4.
      destruct (Z.eqb_spec cv 0) as [->|N]; [discriminate|]. cbn [app].
      cbn [pr_jv forallb fst snd] in *. rewrite Pi, Cc. reflexivity.
    - apply Z.eqb_eq in E4. subst cv. cbn [Z.eqb app].
      assert (Pt : forallb pr_jv (map (tuple_j text_of_addr) (tr :: trs)) = true).
      { apply forallb_forall. intros x Ix. apply in_map_iff in Ix as (y & <- & Iy). apply pr_tuple_j.
        - apply A. right. apply in_map. exact Iy.
        - rewrite forallb_forall in E3. apply E3. exact Iy. }
      cbn [pr_jv forallb fst snd] in *. rewrite Pi. cbn [andb].
      rewrite Pt. reflexivity.
  Qed.

  Theorem pr_batch_j b : (forall a, In a (batch_addrs b) -> addr_ok a) -> batch_encodable b = true ->
    pr_jv (batch_j text_of_addr b) = true.
  Proof.
    intros A E. unfold batch_encodable in E. apply andb_true_iff in E as [Ev Et].
    unfold batch_j. cbn [pr_jv forallb fst snd]. rewrite (dec_of_canon _ Ev).
    assert (Pt : forallb pr_jv (map (tx_j text_of_addr) (b_txs b)) = true).
    { apply forallb_forall. intros x Ix. apply in_map_iff in Ix as (t & <- & It). apply pr_tx_j.
      - intros a Ia. apply A. unfold batch_addrs. apply in_flat_map. exists t. split; assumption.
      - rewrite forallb_forall in Et. apply Et. exact It. }
    rewrite Pt. reflexivity.
  Qed.

  Theorem decode_encode_encodable b :
    (forall a, In a (batch_addrs b) -> addr_ok a) -> batch_encodable b = true ->
    decode_batch addr_of_text (Codec.encode text_of_addr b) = Some b.
  Proof.
    intros A E. unfold decode_batch, Codec.encode.
    rewrite (parse_print _ (pr_batch_j b A E)). exact (decode_batch_j_rt b A E).
  Qed.
End RoundTrip.

(* the statement for batches that ValidData accepts:
   the fields have their Go types: amounts are uint64, the conversion field is 0 or a ticker
   (ValidData itself allows an out-of-range conversion next to a zero input amount, and a negative
   one next to transfers; the model's amounts are unbounded integers) *)
Definition tx_in_range (t : tx) : bool :=
  u64 (tx_amt t) && forallb (fun tr => u64 (tr_amt tr)) (tx_transfers t) &&
  (0 <=? tx_conv t) && (tx_conv t <? PTickerMax).
Definition batch_in_range (b : batch) : bool := forallb tx_in_range (b_txs b).

Lemma valid_tx_encodable t : tx_validate t = true -> tx_in_range t = true -> tx_encodable t = true.
Proof.
  intros V R. unfold tx_in_range in R.
  apply andb_true_iff in R as [R R4]. apply andb_true_iff in R as [R R3]. apply andb_true_iff in R as [R1 R2].
  destruct (tx_validate_spec t V) as (_ & Ht & Hc).
  apply Z.leb_le in R3. apply Z.ltb_lt in R4.
  unfold tx_encodable. rewrite R1, R2, (proj2 (tk_iff _) Ht). cbn [andb].
  destruct Hc as [(N & C & _)|(Z0 & C & _)].
  - destruct (tx_transfers t); [congruence|]. apply Z.eqb_eq. lia.
  - rewrite Z0. apply tk_iff. lia.
Qed.

Lemma valid_batch_encodable b : valid_data b = true -> batch_in_range b = true -> batch_encodable b = true.
Proof.
  intros V R. destruct (valid_data_spec b V) as (Hv & _ & Ht & _).
  unfold batch_encodable. rewrite Hv. cbn [u64 andb]. apply andb_true_iff. split; [reflexivity|].
  apply forallb_forall. intros t It. unfold batch_in_range in R. rewrite forallb_forall in R.
  rewrite Forall_forall in Ht. apply valid_tx_encodable; [apply Ht|apply R]; exact It.
Qed.

(* C20 (b): decode . encode = id on valid batches *)
Theorem decode_encode_roundtrip :
  forall (text_of_addr : Z -> bytes) (addr_of_text : bytes -> option Z) (b : batch),
  (forall a, In a (batch_addrs b) ->
     addr_of_text (text_of_addr a) = Some a /\ clean_str (text_of_addr a) = true) ->
  valid_data b = true -> batch_in_range b = true ->
  decode_batch addr_of_text (Codec.encode text_of_addr b) = Some b.
Proof.
  intros toa aot b A V R.
  exact (decode_encode_encodable toa aot b A (valid_batch_encodable b V R)).
Qed.

Definition addr_ok_b (text_of_addr : Z -> bytes) (addr_of_text : bytes -> option Z) (a : Z) : bool :=
  opt_is (addr_of_text (text_of_addr a)) a && clean_str (text_of_addr a).
Definition addrs_ok_b text_of_addr addr_of_text (b : batch) : bool :=
  forallb (addr_ok_b text_of_addr addr_of_text) (batch_addrs b).

Corollary decode_encode_roundtrip_b text_of_addr addr_of_text b :
  addrs_ok_b text_of_addr addr_of_text b = true -> valid_data b = true -> batch_in_range b = true ->
  decode_batch addr_of_text (Codec.encode text_of_addr b) = Some b.
Proof.
  intros A. apply decode_encode_roundtrip. intros a Ia. unfold addrs_ok_b in A.
  rewrite forallb_forall in A. specialize (A a Ia). unfold addr_ok_b in A.
  apply andb_true_iff in A as [A1 A2]. split; [apply opt_is_eq; exact A1|exact A2].
Qed.

Corollary encode_canonical text_of_addr addr_of_text b :
  (forall a, In a (batch_addrs b) ->
     addr_of_text (text_of_addr a) = Some a /\ clean_str (text_of_addr a) = true) ->
  valid_data b = true -> batch_in_range b = true ->
  canonical_bytes (Codec.encode text_of_addr b) = true.
Proof.
  intros A V R. apply (accepted_is_canonical addr_of_text _ b); [|exact V].
  apply decode_encode_roundtrip; assumption.
Qed.

Corollary encode_decode_encode text_of_addr addr_of_text b :
  (forall a, In a (batch_addrs b) ->
     addr_of_text (text_of_addr a) = Some a /\ clean_str (text_of_addr a) = true) ->
  valid_data b = true -> batch_in_range b = true ->
  option_map (Codec.encode text_of_addr) (decode_batch addr_of_text (Codec.encode text_of_addr b)) =
  Some (Codec.encode text_of_addr b).
Proof. intros A V R. rewrite (decode_encode_roundtrip _ _ b A V R). reflexivity. Qed.

Lemma decode_u64_range v n : decode_u64 v = Some n -> u64 n = true.
Proof. intros D. apply u64_iff, (decode_u64_bounds _ _ D). Qed.

Lemma pticker_range data t : pticker_unmarshal data = Some t -> tk t = true.
Proof.
  intros D. destruct (pticker_unmarshal_inv _ _ D) as (x & L & _).
  apply ticker_lookup_spec in L as (_ & R & _). apply tk_iff, R.
Qed.

Section Accepted.
  Variable addr_of_text : bytes -> option Z.

  Lemma decode_tuple_range j tr : decode_tuple addr_of_text j = Some tr -> u64 (tr_amt tr) = true.
  Proof.
    intros D. destruct (proj1 (decode_tuple_iff _ _ _) D) as (ms & va & vm & _ & _ & _ & _ & Dn & _).
    exact (decode_u64_range _ _ Dn).
  Qed.

  Lemma decode_typed_tuple_range j a n t : decode_typed_tuple addr_of_text j = Some (a, n, t) -> u64 n = true.
  Proof.
    intros D. destruct (proj1 (decode_typed_tuple_iff _ _ _ _ _) D) as (ms & va & vm & _ & _ & _ & _ & _ & Dn & _).
    exact (decode_u64_range _ _ Dn).
  Qed.

  Lemma decode_transaction_range j t : decode_transaction addr_of_text j = Some t -> tx_in_range t = true.
  Proof.
    intros D. destruct (proj1 (decode_transaction_iff _ _ _) D) as (ms & vi & _ & _ & Di & Dt & Dc & _).
    unfold tx_in_range. rewrite (decode_typed_tuple_range _ _ _ _ Di). cbn [andb].
    assert (Ht : forallb (fun tr => u64 (tr_amt tr)) (tx_transfers t) = true).
    { destruct (jlookup k_transfers ms) as [vt|]; [|injection Dt as <-; reflexivity].
      apply forallb_forall, Forall_forall.
      exact (decode_array_Forall _ (fun tr => u64 (tr_amt tr) = true) _ _ decode_tuple_range Dt). }
    rewrite Ht. cbn [andb].
    assert (Hc : 0 <= tx_conv t < PTickerMax).
    { destruct (jlookup k_conversion ms) as [vc|]; [|injection Dc as <-; unfold PTickerMax; lia].
      unfold decode_raw_ticker in Dc. apply pticker_range, tk_iff in Dc. lia. }
    lia.
  Qed.

  Theorem decode_batch_j_range j b : decode_batch_j addr_of_text j = Some b -> batch_in_range b = true.
  Proof.
    intros D. destruct (proj1 (decode_batch_j_iff _ _ _) D) as (ms & vv & vt & _ & _ & _ & _ & Dt & _).
    apply forallb_forall, Forall_forall.
    exact (decode_array_Forall _ (fun t => tx_in_range t = true) _ _ decode_transaction_range Dt).
  Qed.

  Theorem decode_batch_range s b : decode_batch addr_of_text s = Some b -> batch_in_range b = true.
  Proof.
    unfold decode_batch. destruct (parse_json s) as [j|]; [|discriminate]. apply decode_batch_j_range.
  Qed.

  (* decode . encode . decode = decode on accepted contents: whatever UnmarshalJSON + ValidData
     accept, its canonical re-encoding is accepted again and gives the same batch *)
  Theorem reencode_accepted text_of_addr s b :
    decode_batch addr_of_text s = Some b -> valid_data b = true ->
    (forall a, In a (batch_addrs b) ->
       addr_of_text (text_of_addr a) = Some a /\ clean_str (text_of_addr a) = true) ->
    decode_batch addr_of_text (Codec.encode text_of_addr b) = Some b /\
    canonical_bytes (Codec.encode text_of_addr b) = true.
  Proof.
    intros D V A. pose proof (decode_batch_range s b D) as R. split.
    - apply decode_encode_roundtrip; assumption.
    - apply (encode_canonical text_of_addr addr_of_text); assumption.
  Qed.
End Accepted.

Corollary encode_injective text_of_addr addr_of_text b1 b2 :
  (forall a, In a (batch_addrs b1 ++ batch_addrs b2) ->
     addr_of_text (text_of_addr a) = Some a /\ clean_str (text_of_addr a) = true) ->
  valid_data b1 = true -> batch_in_range b1 = true -> valid_data b2 = true -> batch_in_range b2 = true ->
  Codec.encode text_of_addr b1 = Codec.encode text_of_addr b2 -> b1 = b2.
Proof.
  intros A V1 R1 V2 R2 E.
  assert (D1 := decode_encode_roundtrip text_of_addr addr_of_text b1
                  (fun a I => A a (in_or_app _ _ a (or_introl I))) V1 R1).
  assert (D2 := decode_encode_roundtrip text_of_addr addr_of_text b2
                  (fun a I => A a (in_or_app _ _ a (or_intror I))) V2 R2).
  rewrite E in D1. rewrite D1 in D2. injection D2 as ->. reflexivity.
Qed.

(* a toy address codec for the examples: the decimal text of the number *)
Definition ex_toa (a : Z) : bytes := dec_of a.
Definition ex_aot (s : bytes) : option Z := if canon_number s then Some (dec_value s) else None.

(* two transactions from address 77: 10 pUSD split 4 + 6 to addresses 5 and 123456789, and a
   conversion of 250 pUSD to PEG *)
Definition ex_batch : batch :=
  {| b_version := 1;
     b_txs := [ {| tx_addr := 77; tx_type := 2; tx_amt := 10;
                   tx_transfers := [ {| tr_addr := 5; tr_amt := 4 |}; {| tr_addr := 123456789; tr_amt := 6 |} ];
                   tx_conv := 0 |};
                {| tx_addr := 77; tx_type := 2; tx_amt := 250; tx_transfers := []; tx_conv := 1 |} ] |}.

(* {"version":1,"transactions":[{"input":{"address":"77","amount":10,"type":"pUSD"},"transfers":[{"address":"5","amount":4},{"address":"123456789","amount":6}]},{"input":{"address":"77","amount":250,"type":"pUSD"},"conversion":"PEG"}]} *)
Definition ex_batch_text : bytes := [123; 34; 118; 101; 114; 115; 105; 111; 110; 34; 58; 49; 44; 34; 116; 114; 97; 110; 115; 97; 99; 116; 105; 111; 110; 115; 34; 58; 91; 123; 34; 105; 110; 112; 117; 116; 34; 58; 123; 34; 97; 100; 100; 114; 101; 115; 115; 34; 58; 34; 55; 55; 34; 44; 34; 97; 109; 111; 117; 110; 116; 34; 58; 49; 48; 44; 34; 116; 121; 112; 101; 34; 58; 34; 112; 85; 83; 68; 34; 125; 44; 34; 116; 114; 97; 110; 115; 102; 101; 114; 115; 34; 58; 91; 123; 34; 97; 100; 100; 114; 101; 115; 115; 34; 58; 34; 53; 34; 44; 34; 97; 109; 111; 117; 110; 116; 34; 58; 52; 125; 44; 123; 34; 97; 100; 100; 114; 101; 115; 115; 34; 58; 34; 49; 50; 51; 52; 53; 54; 55; 56; 57; 34; 44; 34; 97; 109; 111; 117; 110; 116; 34; 58; 54; 125; 93; 125; 44; 123; 34; 105; 110; 112; 117; 116; 34; 58; 123; 34; 97; 100; 100; 114; 101; 115; 115; 34; 58; 34; 55; 55; 34; 44; 34; 97; 109; 111; 117; 110; 116; 34; 58; 50; 53; 48; 44; 34; 116; 121; 112; 101; 34; 58; 34; 112; 85; 83; 68; 34; 125; 44; 34; 99; 111; 110; 118; 101; 114; 115; 105; 111; 110; 34; 58; 34; 80; 69; 71; 34; 125; 93; 125].

Example roundtrip_hypotheses_satisfiable :
  addrs_ok_b ex_toa ex_aot ex_batch = true /\ valid_data ex_batch = true /\ batch_in_range ex_batch = true /\
  Codec.encode ex_toa ex_batch = ex_batch_text /\
  decode_batch ex_aot (Codec.encode ex_toa ex_batch) = Some ex_batch.
Proof. vm_compute. repeat split; reflexivity. Qed.

(* the theorem applied to it (not by computation) *)
Example roundtrip_instance : decode_batch ex_aot ex_batch_text = Some ex_batch.
Proof.
  assert (E : ex_batch_text = Codec.encode ex_toa ex_batch) by (vm_compute; reflexivity). rewrite E.
  apply decode_encode_roundtrip_b; vm_compute; reflexivity.
Qed.

(* each hypothesis is needed *)
(* (i) neither transfers nor conversion: the encoder writes {"input":{...}} and the decoder's
   length check expects the transfers member; ValidData refuses this transaction too *)
Definition ex_empty_tx : batch :=
  {| b_version := 1;
     b_txs := [ {| tx_addr := 77; tx_type := 2; tx_amt := 0; tx_transfers := []; tx_conv := 0 |} ] |}.
Example no_roundtrip_without_transfers_and_conversion :
  valid_data ex_empty_tx = false /\ batch_in_range ex_empty_tx = true /\
  addrs_ok_b ex_toa ex_aot ex_empty_tx = true /\
  decode_batch ex_aot (Codec.encode ex_toa ex_empty_tx) = None.
Proof. vm_compute. repeat split; reflexivity. Qed.

(* (ii) ValidData accepts a conversion field outside the ticker range when there are no
   transfers and the input amount is 0; [encode] then writes "invalid token type" and the decoder
   refuses it (Go: PTicker.MarshalJSON returns an error instead, so json.Marshal fails) *)
Definition ex_conv_out_of_range (cv : Z) : batch :=
  {| b_version := 1;
     b_txs := [ {| tx_addr := 77; tx_type := 2; tx_amt := 0; tx_transfers := []; tx_conv := cv |} ] |}.
Example no_roundtrip_conversion_out_of_range :
  valid_data (ex_conv_out_of_range 63) = true /\ valid_data (ex_conv_out_of_range (-1)) = true /\
  batch_in_range (ex_conv_out_of_range 63) = false /\ batch_in_range (ex_conv_out_of_range (-1)) = false /\
  decode_batch ex_aot (Codec.encode ex_toa (ex_conv_out_of_range 63)) = None /\
  decode_batch ex_aot (Codec.encode ex_toa (ex_conv_out_of_range (-1))) = None.
Proof. vm_compute. repeat split; reflexivity. Qed.

(* (iii) ValidData accepts a NEGATIVE conversion field next to transfers *)
Definition ex_transfers_and_negative_conv : batch :=
  {| b_version := 1;
     b_txs := [ {| tx_addr := 77; tx_type := 2; tx_amt := 4;
                   tx_transfers := [ {| tr_addr := 5; tr_amt := 4 |} ]; tx_conv := -1 |} ] |}.
Example no_roundtrip_transfers_with_negative_conversion :
  valid_data ex_transfers_and_negative_conv = true /\ batch_in_range ex_transfers_and_negative_conv = false /\
  decode_batch ex_aot (Codec.encode ex_toa ex_transfers_and_negative_conv) = None.
Proof. vm_compute. repeat split; reflexivity. Qed.

(* (iv) amounts are unbounded integers in the model: 2^64 and -4 pass ValidData but are not uint64 *)
Definition ex_amount (n : Z) : batch :=
  {| b_version := 1;
     b_txs := [ {| tx_addr := 77; tx_type := 2; tx_amt := n;
                   tx_transfers := [ {| tr_addr := 5; tr_amt := n |} ]; tx_conv := 0 |} ] |}.
Example no_roundtrip_amount_not_uint64 :
  valid_data (ex_amount 18446744073709551616) = true /\ valid_data (ex_amount (-4)) = true /\
  decode_batch ex_aot (Codec.encode ex_toa (ex_amount 18446744073709551616)) = None /\
  decode_batch ex_aot (Codec.encode ex_toa (ex_amount (-4))) = None /\
  decode_batch ex_aot (Codec.encode ex_toa (ex_amount 18446744073709551615)) = Some (ex_amount 18446744073709551615).
Proof. vm_compute. repeat split; reflexivity. Qed.

(* (v) an address text that needs escaping: [print] does not escape, so a quote inside the text
   ends the string early *)
Definition ex_toa_quote (a : Z) : bytes := 34 :: dec_of a.
Definition ex_aot_quote (s : bytes) : option Z := match s with 34 :: r => ex_aot r | _ => None end.
Example no_roundtrip_unclean_address_text :
  opt_is (ex_aot_quote (ex_toa_quote 77)) 77 = true /\ clean_str (ex_toa_quote 77) = false /\
  valid_data ex_batch = true /\ batch_in_range ex_batch = true /\
  decode_batch ex_aot_quote (Codec.encode ex_toa_quote ex_batch) = None.
Proof. vm_compute. repeat split; reflexivity. Qed.

(* (vi) ValidData is stronger than needed: the version may be any uint64 and the list of
   transactions may be empty; such batches round-trip without being valid *)
Example roundtrip_without_validity :
  let b := {| b_version := 7; b_txs := [] |} in
  valid_data b = false /\ batch_encodable b = true /\
  decode_batch ex_aot (Codec.encode ex_toa b) = Some b.
Proof. vm_compute. repeat split; reflexivity. Qed.

Print Assumptions decode_encode_roundtrip.
Print Assumptions reencode_accepted.
Print Assumptions encode_injective.
Print Assumptions decode_encode_encodable.
Print Assumptions decode_batch_j_rt.
Print Assumptions parse_print.
Print Assumptions dec_value_dec_of.
Print Assumptions roundtrip_hypotheses_satisfiable.
