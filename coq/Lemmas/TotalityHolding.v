(* Lemmas/TotalityHolding.v — C08 (sync liveness), totality half: ApplyTransactionBatchesInHolding
   cannot fail, whatever the held batches are, with one exact exception: a held batch that contains a
   PEG request while the PEG bank exists (PegnetConversionLimitActivation <= height < V20HeightActivation).
   In particular it cannot fail from PegNet 2.0 on (apply_holding_total_outside_bank_era).

   Failure codes of the holding path and what becomes of them:
     E_NORATES         only with an empty rate map: apply_holding is only called on a rated block, whose
                       pn_rate rows always contain PEG (hypothesis [is_empty_map rates = false])
     E_CONVERT         first loop: the Convert error returns nil, the batch is left alone (BDropped);
                       second loop and recordBatch: same arguments as in the first loop, so it cannot
                       happen once the first loop let the batch through (check_txs_result)
     E_UNCAUGHT        impossible: the uint64 simulation and recordBatch agree on the input address rows
                       (needs: the signer is not the burn address; no wrap, from the room hypothesis; and no
                       PEG request deferred to the bank — the simulation credits those, recordBatch does not:
                       that is the recorded finding about mixed bank-era batches)
     E_BADCOLUMN       needs the input ticker to be a ticker (the decoder's guarantee); the conversion
                       target of a conversion is a ticker by [is_conversion]
     E_SQLARG,
     E_OVERFLOW_CELL   excluded by the room hypothesis [bal_room s (holding_credit ... + n)]
     E_DUP_TXID        only through recordPegnetRequests with requests: not reached without a PEG request
     E_BANKROW         UpdateBankEntry on a missing row: sync_block inserts the row of a rated bank-era block
                       before it calls apply_holding (hypothesis [bank_row_ready]) *)
From Model Require Import Ledger.
From Lemmas Require Import ArithLemmas DbLemmas LedgerLemmas TotalityLemmas.
From Gen Require Import Consts.
From Coq Require Import Lia ZifyBool.
Open Scope Z_scope.
Open Scope list_scope.

(* rates and averages are uint64 in the code *)
Definition rates_nonneg (r : gmap ticker Z) : Prop := forall t, 0 <= rate_of r t.
Definition rates_nonnegb (r : gmap ticker Z) : bool := forallb (fun kv => 0 <=? snd kv) (map_to_list r).
Lemma rates_nonnegb_spec r : rates_nonnegb r = true -> rates_nonneg r.
Proof.
  unfold rates_nonnegb, rates_nonneg, rate_of. intros H t. rewrite forallb_forall in H.
  destruct (r !! t) as [v|] eqn:E; cbn [from_option id]; [|lia].
  apply elem_of_map_to_list in E. apply elem_of_list_In in E. specialize (H _ E). cbn [snd] in H. lia.
Qed.

Definition in_bank_era (c : cfg) (cur : Z) : bool :=
  (c_PegnetConversionLimitActivation c <=? cur) && (cur <? c_V20HeightActivation c).
(* the decoder's / signature check's guarantees, and: no PEG request while the bank exists *)
Definition held_wf (c : cfg) (cur : Z) (e : entry) (hh : Z) : bool :=
  batch_wf (burn_addr c cur) (entry_valid_at c e hh) &&
  match entry_valid_at c e hh with Some txs => negb (in_bank_era c cur && has_peg_request txs) | None => true end.
(* an upper bound: every valid held batch is counted, also those that will be rejected, refused or
   left in holding *)
Definition held_credit (c : cfg) (cur : Z) (rates avgs : gmap ticker Z) (e : entry) (hh : Z) : Z :=
  match entry_valid_at c e hh with Some txs => txs_credit c cur rates avgs txs | None => 0 end.
Definition held_list_credit c cur rates avgs (hh : Z) (es : list entry) : Z :=
  fold_right (fun e acc => held_credit c cur rates avgs e hh + acc) 0 es.
(* the held batches are read through the pool: the committed database [cm] *)
Definition holding_credit c (cm : db) cur rates avgs (hs : list Z) : Z :=
  fold_right (fun hh acc => held_list_credit c cur rates avgs hh (holding_at cm hh) + acc) 0 hs.
Definition holding_wf c (cm : db) cur (hs : list Z) : bool :=
  forallb (fun hh => forallb (fun e => held_wf c cur e hh) (holding_at cm hh)) hs.
Definition holding_window (s : db) (cur : Z) : list Z :=
  zrange (last_rated_below s cur) (Z.to_nat (cur - last_rated_below s cur)).
(* from V4 to 2.0 the bank row of the block is written before the held batches are applied *)
Definition bank_row_ready (c : cfg) (cur : Z) (s : db) : Prop :=
  ((c_V4OPRUpdate c <=? cur) && (cur <? c_V20HeightActivation c)) = true -> bank s !! cur <> None.

(* the heights at which no PEG request is deferred to the bank: from 2.0 on (PEG conversions are refused),
   and before the conversion limit (they are ordinary conversions) *)
Definition outside_bank_era (c : cfg) (cur : Z) : Prop :=
  c_V20HeightActivation c <= cur \/
  (cur < c_PegnetConversionLimitActivation c /\ cur < c_V4OPRUpdate c).

Section WithCfg.
Variable c : cfg.
Variables (cur : Z) (rates avgs : gmap ticker Z).
Hypothesis Hne : is_empty_map rates = false.
Hypothesis Hrn : rates_nonneg rates.
Hypothesis Han : rates_nonneg avgs.

Lemma held_credit_nonneg e hh : 0 <= held_credit c cur rates avgs e hh.
Proof.
  unfold held_credit. destruct (entry_valid_at c e hh) as [txs|] eqn:E; [|lia].
  apply txs_credit_nonneg; [apply conv_of_nonneg; assumption|eapply entry_valid_at_ok; exact E].
Qed.
Lemma held_list_credit_nonneg hh es : 0 <= held_list_credit c cur rates avgs hh es.
Proof. apply (fold_sum_nonneg (fun e => held_credit c cur rates avgs e hh)). intros e _. apply held_credit_nonneg. Qed.
Lemma holding_credit_nonneg cm hs : 0 <= holding_credit c cm cur rates avgs hs.
Proof.
  apply (fold_sum_nonneg (fun hh => held_list_credit c cur rates avgs hh (holding_at cm hh))). intros hh _. apply held_list_credit_nonneg.
Qed.

Lemma peg_request_is_peg_conversion txs : has_peg_request txs = true -> has_peg_conversion txs = true.
Proof.
  unfold has_peg_request, has_peg_conversion. rewrite !existsb_exists. intros (t & Hin & H). exists t. split; [exact Hin|].
  unfold is_peg_request in H. destruct (tx_transfers t); [exact H|discriminate].
Qed.

(* one held batch: it is skipped, marked as rejected, left in holding, or applied *)
Lemma apply_held_total s e hh n :
  held_wf c cur e hh = true -> 0 <= n -> bal_room s (held_credit c cur rates avgs e hh + n) ->
  exists s', apply_held c cur rates avgs s e hh = Ok (s', false) /\ bal_room s' n.
Proof.
  intros Hwf Hn Hr. pose proof (held_credit_nonneg e hh) as Hcr.
  assert (Hr0 : bal_room s n) by (eapply bal_room_weaken; [|exact Hr]; lia).
  unfold apply_held, held_wf, held_credit in *.
  destruct (entry_valid_at c e hh) as [txs|] eqn:Ev; [|exists s; auto].
  cbn [batch_wf] in *. apply andb_prop in Hwf as [Hwf Hnb]. apply negb_true_iff in Hnb.
  assert (Hisp : ((cur <? c_V20HeightActivation c) && (c_PegnetConversionLimitActivation c <=? cur) && has_peg_request txs) = false).
  { unfold in_bank_era in Hnb. destruct (has_peg_request txs); lia. }
  destruct ((c_V20HeightActivation c <=? cur) && has_peg_conversion txs) eqn:Hp; [eexists; split; [reflexivity|exact Hr0]|].
  destruct (entry_valid_at c e cur); [|eexists; split; [reflexivity|exact Hr0]].
  destruct (is_replay s (e_hash e)); [exists s; auto|].
  destruct (tx_wf_pre c cur txs Hwf (entry_valid_at_ok c e hh txs Ev)) as [Hpre Hburn].
  { (* a PEG request: refused from 2.0 on (Hp), excluded in the bank era (Hnb) *)
    unfold in_bank_era in Hnb. destruct (has_peg_request txs) eqn:K; [|apply andb_false_r].
    rewrite (peg_request_is_peg_conversion txs K) in Hp. lia. }
  pose proof (apply_batch_total c cur s (e_hash e) txs rates avgs n Hpre Hburn (conv_of_nonneg c cur rates avgs Hrn Han)
                (or_introl Hne) Hn Hr) as T.
  destruct (apply_batch c cur s (e_hash e) txs rates avgs) as [s2|code| |code] eqn:Eb.
  - rewrite Hisp. exists s2. split; [reflexivity|apply T].
  - eexists. split; [reflexivity|exact Hr0].
  - rewrite Hisp. exists s. auto.
  - contradiction.
Qed.

(* the held batches of one height: none of them is a PEG request for the bank, so the list of
   requests stays empty *)
Lemma apply_held_height_total cm hh s n :
  forallb (fun e => held_wf c cur e hh) (holding_at cm hh) = true -> 0 <= n ->
  bal_room s (held_list_credit c cur rates avgs hh (holding_at cm hh) + n) ->
  exists s', apply_held_height c cm cur rates avgs hh (Ok (s, [])) = Ok (s', []) /\ bal_room s' n.
Proof.
  intros Hwf Hn Hr. rewrite forallb_forall in Hwf. unfold apply_held_height. cbn [rbind].
  pose (R := fun (st : db * list (hash * list tx)) m => bal_room (fst st) m /\ snd st = []).
  destruct (fold_res_total R
              (fun st e => let '(s, pegs) := st in
                 let? r1 := apply_held c cur rates avgs s e hh in let '(s', isp) := r1 in
                 Ok (s', if isp then pegs ++ [(e_hash e, default [] (e_batch e))] else pegs))
              (fun e => held_credit c cur rates avgs e hh) (holding_at cm hh) (fun e _ => held_credit_nonneg e hh))
    with (st := (s, @nil (hash * list tx))) (n := n) as ([s1 p1] & F & Hr1 & Hp); [|exact Hn|split; [exact Hr|reflexivity]|].
  - intros [s0 p0] e m Hin Hm [Hr0 Hp0]. cbn [fst snd] in *. subst p0.
    destruct (apply_held_total s0 e hh m (Hwf e Hin) Hm Hr0) as (s2 & A1 & A2). rewrite A1. exists (s2, []). split; [reflexivity|split; [exact A2|reflexivity]].
  - cbn [fst snd] in *. subst p1. rewrite F. cbn [rbind]. exists s1. split; [apply early_bank_step_nil|exact Hr1].
Qed.

Lemma apply_holding_fold_total cm hs s n :
  holding_wf c cm cur hs = true -> 0 <= n -> bal_room s (holding_credit c cm cur rates avgs hs + n) ->
  exists s', fold_left (fun acc hh => apply_held_height c cm cur rates avgs hh acc) hs (Ok (s, [])) = Ok (s', []) /\
             lwrites True false true s s' /\ bal_room s' n.
Proof.
  intros Hwf Hn Hr. unfold holding_wf in Hwf. rewrite forallb_forall in Hwf.
  pose (R := fun (st : db * list (hash * list tx)) m => bal_room (fst st) m /\ snd st = [] /\ lwrites True false true s (fst st)).
  destruct (fold_res_total R (fun st hh => apply_held_height c cm cur rates avgs hh (Ok st))
              (fun hh => held_list_credit c cur rates avgs hh (holding_at cm hh)) hs (fun hh _ => held_list_credit_nonneg hh _))
    with (st := (s, @nil (hash * list tx))) (n := n) as ([s1 p1] & F & Hr1 & Hp & Hw);
    [|exact Hn|split; [exact Hr|split; reflexivity]|].
  - intros [s0 p0] hh m Hin Hm (Hr0 & Hp0 & Hw0). cbn [fst snd] in *. subst p0.
    destruct (apply_held_height_total cm hh s0 m (Hwf hh Hin) Hm Hr0) as (s2 & A1 & A2). exists (s2, []). split; [exact A1|].
    split; [exact A2|]. split; [reflexivity|]. etransitivity; [exact Hw0|eapply apply_held_height_writes; exact A1].
  - cbn [fst snd] in *. subst p1. exists s1. split; [|split; assumption].
    (* the model threads the result through [apply_held_height] itself *)
    rewrite <- F. reflexivity.
Qed.

Theorem apply_holding_total cm s n :
  holding_wf c cm cur (holding_window s cur) = true -> bank_row_ready c cur s -> 0 <= n ->
  bal_room s (holding_credit c cm cur rates avgs (holding_window s cur) + n) ->
  exists s', apply_holding c cm cur s rates avgs = Ok s' /\ keys s' = keys s /\ bal_room s' n.
Proof.
  intros Hwf Hbank Hn Hr. unfold apply_holding. cbv zeta.
  destruct (apply_holding_fold_total cm (holding_window s cur) s n Hwf Hn Hr) as (s1 & F1 & F2 & F3).
  unfold holding_window in F1. rewrite F1. cbn [rbind]. pose proof (lwrites_keys _ _ _ _ F2) as K1.
  destruct ((c_V4OPRUpdate c <=? cur) && (cur <? c_V20HeightActivation c)) eqn:E; [|exists s1; auto].
  assert (G : forall amount, exists s', record_peg_requests c cur s1 [] rates avgs amount cur = Ok s' /\ keys s' = keys s /\ bal_room s' n).
  { intros amount. pose proof (lwrites_bank_row _ _ _ _ _ _ F2 (Hbank E)) as Hrow. rewrite record_peg_requests_nil.
    apply andb_prop in E as [E _]. rewrite E. unfold update_bank. destruct (bank s1 !! cur) as [[[am u] r]|]; [|contradiction].
    eexists. split; [reflexivity|]. split; [exact K1|exact F3]. }
  destruct (bank s1 !! cur) as [[[am u] r]|]; apply G.
Qed.

End WithCfg.

(* outside the bank era the restriction on PEG requests and the bank row are vacuous: in particular from 2.0 on *)

Definition held_wf_basic (c : cfg) (cur : Z) (e : entry) (hh : Z) : bool := batch_wf (burn_addr c cur) (entry_valid_at c e hh).
Definition holding_wf_basic c (cm : db) cur (hs : list Z) : bool :=
  forallb (fun hh => forallb (fun e => held_wf_basic c cur e hh) (holding_at cm hh)) hs.

Lemma outside_not_in_bank_era c cur : outside_bank_era c cur -> in_bank_era c cur = false.
Proof. unfold outside_bank_era, in_bank_era. intros [H|[H _]]; lia. Qed.

Lemma holding_wf_basic_outside c cm cur hs :
  outside_bank_era c cur -> holding_wf_basic c cm cur hs = true -> holding_wf c cm cur hs = true.
Proof.
  intros Ho H. unfold holding_wf, holding_wf_basic in *. rewrite forallb_forall in *. intros hh Hin. specialize (H hh Hin).
  rewrite forallb_forall in *. intros e He. specialize (H e He). unfold held_wf, held_wf_basic in *. rewrite H. cbn [andb].
  destruct (entry_valid_at c e hh); [|reflexivity]. rewrite (outside_not_in_bank_era c cur Ho). reflexivity.
Qed.

Theorem apply_holding_total_outside_bank_era c cur rates avgs cm s n :
  outside_bank_era c cur ->
  is_empty_map rates = false -> rates_nonneg rates -> rates_nonneg avgs ->
  holding_wf_basic c cm cur (holding_window s cur) = true -> 0 <= n ->
  bal_room s (holding_credit c cm cur rates avgs (holding_window s cur) + n) ->
  exists s', apply_holding c cm cur s rates avgs = Ok s' /\ keys s' = keys s /\ bal_room s' n.
Proof.
  intros Ho Hne Hrn Han Hwf Hn Hr. apply apply_holding_total; auto.
  - apply holding_wf_basic_outside; assumption.
  - intros E. exfalso. destruct Ho as [H|[_ H]]; lia.
Qed.

(* the transaction phase of a rated block: holding, then the block's own entries *)
Theorem holding_then_block_total c cur rates avgs cm s es :
  is_empty_map rates = false -> rates_nonneg rates -> rates_nonneg avgs ->
  hist_closed s ->
  holding_wf c cm cur (holding_window s cur) = true -> bank_row_ready c cur s ->
  Forall (fun e => entry_wf c cur e = true) es ->
  bal_room s (holding_credit c cm cur rates avgs (holding_window s cur) + block_credit c cur es) ->
  exists s1 s2, apply_holding c cm cur s rates avgs = Ok s1 /\ apply_tx_block c cur s1 es = Ok s2 /\
                hist_closed s2 /\ bal_room s2 0.
Proof.
  intros Hne Hrn Han Hcl Hwf Hbank Hes Hr.
  destruct (apply_holding_total c cur rates avgs Hne Hrn Han cm s (block_credit c cur es) Hwf Hbank (block_credit_nonneg c cur es) Hr)
    as (s1 & A1 & A2 & A3).
  destruct (apply_tx_block_total c cur s1 es 0) as (s2 & B1 & B2 & B3); auto.
  - eapply hist_closed_keys; eauto.
  - lia.
  - eapply bal_room_weaken; [|exact A3]. lia.
  - exists s1, s2. auto.
Qed.
