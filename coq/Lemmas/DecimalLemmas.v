(* Lemmas/DecimalLemmas.v — FactoidToFactoshi converts exactly or rejects. *)
From Coq Require Import ZArith List Bool Lia.
From Model Require Import Base Decimal.
From Lemmas Require JsonLemmas.
Import ListNotations.
Open Scope Z_scope.

(* the digit functions of Model/Decimal.v are those of Model/Json.v, term for term *)
Lemma dec_value_nonneg s : all_digits s = true -> 0 <= dec_value s.
Proof. exact (JsonLemmas.dec_value_nonneg s). Qed.

Lemma frac_nonneg f : all_digits f = true -> 0 <= dec_value f * 10 ^ (8 - Z.of_nat (length f)).
Proof. intros H. apply Z.mul_nonneg_nonneg; [exact (dec_value_nonneg f H)|apply Z.pow_nonneg; lia]. Qed.

Theorem factoshi_sound s v :
  factoid_to_factoshi s = Some v ->
  amount_syntax_ok s = true /\ exact_units s = Some v /\ 0 <= v <= max_uint64.
Proof.
  unfold factoid_to_factoshi, exact_units.
  destruct (amount_syntax_ok s) eqn:Hsyn; cbn [negb]; [|discriminate].
  unfold amount_syntax_ok in Hsyn.
  destruct (split_dot s) as [w f].
  apply andb_true_iff in Hsyn as [Hw Hf].
  pose proof (dec_value_nonneg w Hw) as Hw0.
  destruct (Z.ltb_spec max_uint64 (dec_value w)); [discriminate|].
  destruct (Z.ltb_spec (max_uint64 / e8) (dec_value w)) as [|Hle]; [discriminate|].
  assert (Hmul : dec_value w * e8 <= max_uint64).
  { transitivity ((max_uint64 / e8) * e8).
    - apply Z.mul_le_mono_nonneg_r; [unfold e8; lia | exact Hle].
    - rewrite Z.mul_comm. apply Z.mul_div_le. unfold e8; lia. }
  destruct f as [f|].
  - apply andb_true_iff in Hf as [Hfd _].
    destruct (Z.ltb_spec 8 (Z.of_nat (length f))); [discriminate|].
    set (frac := dec_value f * 10 ^ (8 - Z.of_nat (length f))).
    pose proof (frac_nonneg f Hfd : 0 <= frac).
    destruct (Z.ltb_spec max_uint64 (dec_value w * e8 + frac)); [discriminate|].
    intros [= <-]. repeat split; unfold e8 in *; lia.
  - intros [= <-]. repeat split; unfold e8 in *; lia.
Qed.

Theorem factoshi_complete s v :
  amount_syntax_ok s = true -> exact_units s = Some v -> v <= max_uint64 ->
  factoid_to_factoshi s = Some v.
Proof.
  unfold factoid_to_factoshi, exact_units. intros Hsyn. rewrite Hsyn; cbn [negb].
  unfold amount_syntax_ok in Hsyn.
  destruct (split_dot s) as [w f].
  apply andb_true_iff in Hsyn as [Hw Hf].
  pose proof (dec_value_nonneg w Hw) as Hw0.
  assert (Hkey : forall frac, 0 <= frac -> dec_value w * e8 + frac <= max_uint64 ->
            (max_uint64 <? dec_value w) = false /\ (max_uint64 / e8 <? dec_value w) = false).
  { intros frac Hfr Hle. split; apply Z.ltb_ge.
    - unfold e8 in *. lia.
    - apply Z.div_le_lower_bound; [unfold e8; lia|]. unfold e8 in *. lia. }
  destruct f as [f|].
  - apply andb_true_iff in Hf as [Hfd _].
    destruct (Z.ltb_spec 8 (Z.of_nat (length f))); [discriminate|].
    set (frac := dec_value f * 10 ^ (8 - Z.of_nat (length f))).
    pose proof (frac_nonneg f Hfd : 0 <= frac).
    intros [= <-] Hv. destruct (Hkey frac ltac:(assumption) Hv) as [-> ->].
    destruct (Z.ltb_spec max_uint64 (dec_value w * e8 + frac)); [lia|reflexivity].
  - intros [= <-] Hv. destruct (Hkey 0 ltac:(lia) ltac:(lia)) as [-> ->]. reflexivity.
Qed.

(* the behaviour before the repair really did alter amounts: the witness of the finding *)
Definition legacy_witness : list Z := [49;56;52;52;54;55;52;52;48;55;51;56].  (* "184467440738" *)
Lemma factoshi_legacy_refuted :
  exists s v, factoid_to_factoshi_legacy s = Some v /\ exact_units s <> Some v.
Proof.
  exists legacy_witness, 90448384. split; [vm_compute; reflexivity | vm_compute; discriminate].
Qed.
