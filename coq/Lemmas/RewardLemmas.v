(* Lemmas/RewardLemmas.v — C11: grading rewards and FCT burns are credited exactly as decided,
   to the named address, once; nothing else in those steps touches a balance. *)
From Model Require Import Block.
From Lemmas Require Import DbLemmas LedgerLemmas SupplyLemmas.
From Gen Require Import Consts.
From Coq Require Import Lia.
Open Scope Z_scope.

Definition owed (ws : list winner) (a : addr) : Z :=
  fold_right (fun w acc => (match w_addr w with Some a' => if a' =? a then wrap64 (w_payout w) else 0 | None => 0 end) + acc) 0 ws.

(* a logged credit (LedgerLemmas.credit_logged_inv) seen from one cell *)
Lemma credit_logged_bal s a t v r x lk s' a' t' :
  (let? s1 := add_to_balance s a t v in let? s2 := insert_hbatch s1 r in insert_htx s2 x lk) = Ok s' ->
  get_bal (bal s') a' t' = get_bal (bal s) a' t' + (if (a =? a') && (t =? t') then v else 0).
Proof. intros H. apply credit_logged_inv in H as (s1 & Ha & ->). exact (get_bal_add _ _ _ _ _ a' t' Ha). Qed.

Theorem pay_winners_exact ts ws : forall s s' a t,
  pay_winners s ts ws = Ok s' ->
  get_bal (bal s') a t = get_bal (bal s) a t + (if t =? PTickerPEG then owed ws a else 0).
Proof.
  intros s s' a t H. unfold pay_winners in H.
  apply (fold_res_sum (fun s => get_bal (bal s) a t)
           (fun w => if t =? PTickerPEG
                     then match w_addr w with Some a' => if a' =? a then wrap64 (w_payout w) else 0 | None => 0 end else 0)) in H.
  - rewrite H. f_equal. apply fold_right_if.
  - intros s0 w s1 _ Hs. destruct (w_addr w) as [a'|]; [|inversion Hs; destruct (t =? PTickerPEG); lia].
    rewrite (credit_logged_bal _ _ _ _ _ _ _ _ a t Hs), (Z.eqb_sym PTickerPEG t). destruct (a' =? a), (t =? PTickerPEG); reflexivity.
Qed.

Definition burned_by (fs : list ftx) (a : addr) : Z :=
  fold_right (fun f acc => (match is_burn f with Some (a', v) => if a' =? a then v else 0 | None => 0 end) + acc) 0 fs.

Theorem factoid_block_exact h fs : forall s s' a t,
  apply_factoid_block h s fs = Ok s' ->
  get_bal (bal s') a t = get_bal (bal s) a t + (if t =? PTickerFCT then burned_by fs a else 0).
Proof.
  intros s s' a t H. unfold apply_factoid_block in H.
  apply (fold_res_sum (fun s => get_bal (bal s) a t)
           (fun f => if t =? PTickerFCT
                     then match is_burn f with Some (a', v) => if a' =? a then v else 0 | None => 0 end else 0)) in H.
  - rewrite H. f_equal. apply fold_right_if.
  - intros s0 f s1 _ Hs. destruct (is_burn f) as [[a' v]|]; [|inversion Hs; destruct (t =? PTickerFCT); lia].
    rewrite (credit_logged_bal _ _ _ _ _ _ _ _ a t Hs), (Z.eqb_sym PTickerFCT t). destruct (a' =? a), (t =? PTickerFCT); reflexivity.
Qed.

Lemma is_burn_shape f a v :
  is_burn f = Some (a, v) ->
  f_inputs f = [(a, v)] /\ f_outputs f = [] /\ f_ecoutputs f = [(BurnRCD, 0)] /\ 0 <= v.
Proof. apply is_burn_inv. Qed.

(* the grader version by height: the ladder read off the source equals the protocol's table
   whenever the activations are in mainnet order *)
Lemma opr_version_table c h :
  c_GradingV2Activation c <= c_PEGFreeFloatingPriceActivation c <= c_V4OPRUpdate c ->
  c_V4OPRUpdate c <= c_V20HeightActivation c ->
  opr_version c h =
    if c_V20HeightActivation c <=? h then 5 else if c_V4OPRUpdate c <=? h then 4
    else if c_PEGFreeFloatingPriceActivation c <=? h then 3 else if c_GradingV2Activation c <=? h then 2 else opr_version_ladder_init.
Proof.
  intros [H1 H2] H3. unfold opr_version, ladder_version, opr_ladder. cbn [fold_left fst snd].
  destruct (Z.leb_spec (c_V20HeightActivation c) h), (Z.leb_spec (c_V4OPRUpdate c) h),
           (Z.leb_spec (c_PEGFreeFloatingPriceActivation c) h), (Z.leb_spec (c_GradingV2Activation c) h); try reflexivity; lia.
Qed.
Lemma spr_version_table c h :
  c_V20HeightActivation c <= c_SprSignatureActivation c <= c_V202EnhanceActivation c ->
  spr_version c h =
    if c_V202EnhanceActivation c <=? h then 7 else if c_SprSignatureActivation c <=? h then 6 else 5.
Proof.
  intros [H1 H2]. unfold spr_version, ladder_version, spr_ladder. cbn [fold_left fst snd].
  assert (spr_version_ladder_init = 5) as -> by reflexivity.
  destruct (Z.leb_spec (c_V202EnhanceActivation c) h), (Z.leb_spec (c_SprSignatureActivation c) h),
           (Z.leb_spec (c_V20HeightActivation c) h); try reflexivity; lia.
Qed.
