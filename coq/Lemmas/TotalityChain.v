(* Lemmas/TotalityChain.v — C08 (sync liveness): the chain-level corollary of [step_block_total].

   [tables_below h s]: nothing is recorded in pn_grade, pn_winners, pn_rate, pn_sync_version for a height >= h.
   It is an invariant along a chain of strictly increasing heights (a block at height h turns tables_below h
   into tables_below (h+1)), and it gives the freshness hypothesis [fresh_at] of every block.

   [replay_total]: a chain of live-era blocks (activation heights included) with strictly increasing heights, each satisfying the
   per-block hypotheses in the state it meets, is applied to its end: replay = Done. *)
From Model Require Import Block Obs.
From Lemmas Require Import DbLemmas LedgerLemmas BlockLemmas ChainLemmas HistoryLemmas3
     TotalityLemmas TotalityInvariant TotalityRange TotalityBlockParts TotalityHolding TotalityBlock.
From Gen Require Import Consts.
From Coq Require Import Lia ZifyBool.
Open Scope Z_scope.
Open Scope list_scope.

Definition tables_below (h : Z) (s : db) : Prop :=
  (forall k, h <= k -> grades s !! k = None) /\ (forall k, h <= k -> rates s !! k = None) /\
  (forall k, h <= k -> versions s !! k = None) /\
  Forall (fun r => fst (fst (fst (fst r))) < h) (winners s).

Lemma tables_below_genesis h : tables_below h genesis.
Proof. unfold tables_below, genesis, empty_db. cbn. repeat split; try (intros; apply lookup_empty). constructor. Qed.

Lemma tables_below_fresh h s k : tables_below h s -> h <= k -> fresh_at k s.
Proof.
  intros (Hg & Hr & Hv & Hw) Hk. split; [apply Hg; exact Hk|]. split; [apply Hr; exact Hk|]. split; [apply Hv; exact Hk|].
  unfold winner_rows_fresh. apply forallb_forall. intros r Hin. rewrite Forall_forall in Hw. specialize (Hw r Hin). cbv beta in Hw. lia.
Qed.

Section WithCfg.
Variable c : cfg.

(* one block: the tables stay below the next height *)
Theorem step_block_total_below cm mem b h :
  hist_closed cm -> bal_room cm 0 -> tables_below h cm -> h <= b_height b ->
  (fresh_at (b_height b) cm -> block_hyps c cm mem b) ->
  exists s' mem', step_block c cm mem b = Done (s', mem') /\ hist_closed s' /\ bal_room s' 0 /\ cache_nonneg mem' /\
                  tables_below (b_height b + 1) s'.
Proof.
  intros Hcl Hr0 Hb Hh Hyp. pose proof (tables_below_fresh h cm (b_height b) Hb Hh) as Hf.
  destruct (step_block_total c cm mem b Hcl Hr0 (Hyp Hf)) as (s' & mem' & H1 & H2 & H3 & H4 & H5 & H6).
  exists s', mem'. split; [exact H1|]. split; [exact H2|]. split; [exact H3|]. split; [exact H4|].
  destruct Hb as (Bg & Br & Bv & Bw). split; [|split; [|split]].
  - intros k Hk. rewrite H5 by lia. apply Bg. lia.
  - intros k Hk. rewrite (step_block_rates_only_own_height c cm mem b s' mem' k ltac:(lia) H1). apply Br. lia.
  - intros k Hk. destruct (step_block_synced c cm mem b s' mem' H1) as (_ & _ & Ev). rewrite Ev.
    rewrite lookup_insert_ne by lia. apply Bv. lia.
  - apply Forall_forall. intros r Hr. apply H6 in Hr as [Hr|Hr]; [|lia]. rewrite Forall_forall in Bw. specialize (Bw r Hr). cbv beta in Bw. lia.
Qed.

(* the per-block hypotheses along the chain, each stated in the state the block meets *)
Fixpoint chain_hyps (cm : db) (mem : avgcache) (bs : list block) : Prop :=
  match bs with
  | [] => True
  | b :: bs' =>
    (fresh_at (b_height b) cm -> block_hyps c cm mem b) /\
    forall s' mem', step_block c cm mem b = Done (s', mem') -> chain_hyps s' mem' bs'
  end.
Fixpoint increasing_from (h : Z) (bs : list block) : Prop :=
  match bs with [] => True | b :: bs' => h <= b_height b /\ increasing_from (b_height b + 1) bs' end.

Theorem replay_total bs : forall cm mem h,
  hist_closed cm -> bal_room cm 0 -> tables_below h cm -> increasing_from h bs -> chain_hyps cm mem bs ->
  exists s m, replay c cm mem bs = Done (s, m) /\ hist_closed s /\ bal_room s 0.
Proof.
  induction bs as [|b bs IH]; intros cm mem h Hcl Hr0 Hb Hinc Hch.
  - exists cm, mem. split; [reflexivity|]. split; assumption.
  - destruct Hinc as [Hh Hinc']. destruct Hch as [Hb1 Hnext].
    destruct (step_block_total_below cm mem b h Hcl Hr0 Hb Hh Hb1) as (s1 & m1 & S1 & S2 & S3 & S4 & S5).
    cbn [replay]. rewrite S1. exact (IH s1 m1 (b_height b + 1) S2 S3 S5 Hinc' (Hnext s1 m1 S1)).
Qed.

(* from the fresh database *)
Corollary replay_total_genesis bs h :
  increasing_from h bs -> chain_hyps genesis empty_cache bs ->
  exists s m, replay c genesis empty_cache bs = Done (s, m) /\ hist_closed s /\ bal_room s 0.
Proof.
  intros Hinc Hch. apply (replay_total bs genesis empty_cache h); auto.
  - apply hist_closed_genesis.
  - apply bal_room_genesis.
  - apply tables_below_genesis.
Qed.

(* [along cm mem bs Q]: the per-block hypotheses hold (as booleans) along the chain, every block is Done,
   and Q holds of the state and cache at the end.  An example evaluates this one proposition and so runs
   the chain once, whatever it goes on to say about states on the way (Q may be another [along]). *)
Fixpoint along (cm : db) (mem : avgcache) (bs : list block) (Q : db -> avgcache -> Prop) : Prop :=
  match bs with
  | [] => Q cm mem
  | b :: bs' =>
    block_hypsb c cm mem b = true /\
    match step_block c cm mem b with Done (s', mem') => along s' mem' bs' Q | _ => False end
  end.
Lemma along_spec bs : forall cm mem Q,
  along cm mem bs Q -> chain_hyps cm mem bs /\ exists s m, replay c cm mem bs = Done (s, m) /\ Q s m.
Proof.
  induction bs as [|b bs IH]; intros cm mem Q H; cbn [along chain_hyps replay] in *; [eauto|].
  destruct H as [Hb H]. destruct (step_block c cm mem b) as [[s1 m1]| | |]; try contradiction.
  destruct (IH s1 m1 Q H) as [Hch Hrun]. split; [|exact Hrun].
  split; [intros _; apply block_hypsb_spec; exact Hb|]. intros s' mem' E. inversion E; subst. exact Hch.
Qed.
Lemma along_impl bs (Q Q' : db -> avgcache -> Prop) : (forall s m, Q s m -> Q' s m) ->
  forall cm mem, along cm mem bs Q -> along cm mem bs Q'.
Proof.
  intros HQ. induction bs as [|b bs IH]; intros cm mem H; cbn [along] in *; [apply HQ; exact H|].
  destruct H as [Hb H]. split; [exact Hb|]. destruct (step_block c cm mem b) as [[s1 m1]| | |]; [apply IH; exact H|contradiction..].
Qed.
Lemma along_app bs1 bs2 Q : forall cm mem,
  along cm mem bs1 (fun s m => along s m bs2 Q) -> along cm mem (bs1 ++ bs2) Q.
Proof.
  induction bs1 as [|b bs IH]; intros cm mem H; cbn [along app] in *; [exact H|].
  destruct H as [Hb H]. split; [exact Hb|]. destruct (step_block c cm mem b) as [[s1 m1]| | |]; [apply IH; exact H|contradiction..].
Qed.

Fixpoint increasing_fromb (h : Z) (bs : list block) : bool :=
  match bs with [] => true | b :: bs' => (h <=? b_height b) && increasing_fromb (b_height b + 1) bs' end.
Lemma increasing_fromb_spec bs : forall h, increasing_fromb h bs = true -> increasing_from h bs.
Proof.
  induction bs as [|b bs IH]; intros h H; cbn [increasing_fromb increasing_from] in *; [exact I|].
  apply andb_prop in H as [H1 H2]. split; [lia|apply IH; exact H2].
Qed.
End WithCfg.

Definition tables_belowb (h : Z) (s : db) : bool :=
  forallb (fun kv => fst kv <? h) (map_to_list (grades s)) && forallb (fun kv => fst kv <? h) (map_to_list (rates s)) &&
  forallb (fun kv => fst kv <? h) (map_to_list (versions s)) && forallb (fun r => fst (fst (fst (fst r))) <? h) (winners s).
Lemma keys_below_spec {A} (m : gmap Z A) h :
  forallb (fun kv => fst kv <? h) (map_to_list m) = true -> forall k, h <= k -> m !! k = None.
Proof.
  intros H k Hk. rewrite forallb_forall in H. destruct (m !! k) as [v|] eqn:E; [|reflexivity].
  apply elem_of_map_to_list in E. apply elem_of_list_In in E. specialize (H _ E). cbn [fst] in H. lia.
Qed.
Lemma tables_belowb_spec h s : tables_belowb h s = true -> tables_below h s.
Proof.
  unfold tables_belowb, tables_below. intros H. apply andb_prop in H as [H Hw]. apply andb_prop in H as [H Hv]. apply andb_prop in H as [Hg Hr].
  split; [apply keys_below_spec; exact Hg|]. split; [apply keys_below_spec; exact Hr|]. split; [apply keys_below_spec; exact Hv|].
  apply Forall_forall. intros r Hin. rewrite forallb_forall in Hw. specialize (Hw r Hin). lia.
Qed.

(* [replay_total] with its hypotheses about the blocks and the tables in the forms that compute *)
Lemma replay_total_along c h bs cm mem Q :
  hist_closed cm -> bal_room cm 0 -> tables_belowb h cm && increasing_fromb h bs = true -> along c cm mem bs Q ->
  exists s m, replay c cm mem bs = Done (s, m) /\ hist_closed s /\ bal_room s 0.
Proof.
  intros Hc Hr H Ha. apply andb_prop in H as [H1 H2]. apply along_spec in Ha as [Hch _].
  apply (replay_total c bs cm mem h); [exact Hc|exact Hr|apply tables_belowb_spec; exact H1|apply increasing_fromb_spec; exact H2|exact Hch].
Qed.

Print Assumptions replay_total.
