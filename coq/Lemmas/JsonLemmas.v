(* Lemmas/JsonLemmas.v — facts about the scanners and byte-string helpers of Model/Json.v. *)
From Coq Require Import ZArith List Bool Lia.
From Model Require Import Json.
Import ListNotations.
Open Scope list_scope.
Open Scope Z_scope.

Lemma beq_true_eq a : forall b, beq a b = true -> a = b.
Proof.
  induction a as [|x a IH]; intros [|y b] H; cbn [beq] in H; try discriminate; [reflexivity|].
  apply andb_true_iff in H as [H1 H2]. apply Z.eqb_eq in H1. subst. f_equal. apply IH; exact H2.
Qed.
Lemma beq_refl a : beq a a = true.
Proof. induction a as [|x a IH]; cbn [beq]; [reflexivity|]. rewrite Z.eqb_refl, IH. reflexivity. Qed.
Lemma beq_false_neq a b : beq a b = false -> a <> b.
Proof. intros H E. subst. rewrite beq_refl in H. discriminate. Qed.

Lemma forallb_Forall {A} (f : A -> bool) (P : A -> Prop) l :
  (forall x, f x = true -> P x) -> forallb f l = true -> Forall P l.
Proof. intros H F. apply Forall_forall. intros x I. apply H. exact (proj1 (forallb_forall f l) F x I). Qed.

Lemma join_length l : l <> [] ->
  (length (Json.join l) + 1 = list_sum (map (fun x => length x + 1) l))%nat.
Proof.
  induction l as [|x r IH]; [congruence|]. intros _.
  destruct r as [|y r'].
  - cbn. lia.
  - change (Json.join (x :: y :: r')) with (x ++ 44 :: Json.join (y :: r')).
    cbn [map list_sum fold_right]. rewrite app_length. cbn [length].
    assert (H : y :: r' <> []) by discriminate.
    specialize (IH H). cbn [map list_sum fold_right] in IH. lia.
Qed.

Lemma is_digit_iff c : is_digit c = true <-> 48 <= c <= 57.
Proof. unfold is_digit. rewrite andb_true_iff, !Z.leb_le. reflexivity. Qed.

Lemma is_digit19_iff c : is_digit19 c = true <-> 49 <= c <= 57.
Proof. unfold is_digit19. rewrite andb_true_iff, !Z.leb_le. reflexivity. Qed.

Lemma is_digit19_digit c : is_digit19 c = true -> is_digit c = true.
Proof. rewrite is_digit19_iff, is_digit_iff. lia. Qed.

Lemma all_digits_cons c d : all_digits (c :: d) = true <-> is_digit c = true /\ all_digits d = true.
Proof. apply andb_true_iff. Qed.

Lemma all_digits_app_nondigit a x y : is_digit x = false -> all_digits (a ++ x :: y) = false.
Proof. intros H. unfold all_digits. rewrite forallb_app. cbn [forallb]. rewrite H. apply andb_false_r. Qed.

Lemma dec_fold_mono s : forall acc, all_digits s = true -> 0 <= acc ->
  acc <= fold_left (fun a c => a * 10 + (c - 48)) s acc.
Proof.
  induction s as [|c s IH]; intros acc D A; cbn [fold_left]; [lia|].
  apply all_digits_cons in D as [Dc Ds]. apply is_digit_iff in Dc.
  specialize (IH (acc * 10 + (c - 48)) Ds ltac:(lia)). lia.
Qed.

Lemma dec_value_nonneg raw : all_digits raw = true -> 0 <= dec_value raw.
Proof. intros D. apply (dec_fold_mono raw 0 D). lia. Qed.

Lemma unquote_plain s : Forall (fun c => c < 128 /\ c <> 92) s -> unquote s = s.
Proof.
  induction 1 as [|c s [H1 H2] _ IH]; [reflexivity|]. cbn [unquote].
  destruct (Z.eqb_spec c 92); [contradiction|]. destruct (Z.ltb_spec c 128); [|lia]. f_equal. exact IH.
Qed.

Lemma is_hex_not_quote h : is_hex h = true -> (h =? 34) = false /\ (h =? 92) = false.
Proof.
  unfold is_hex. intros H.
  assert (R : (48 <= h <= 57) \/ (97 <= h <= 102) \/ (65 <= h <= 70)).
  { apply orb_true_iff in H as [H|H]; [apply orb_true_iff in H as [H|H]; [apply is_digit_iff in H; lia|]|];
      apply andb_true_iff in H as [H1 H2]; apply Z.leb_le in H1, H2; lia. }
  split; apply Z.eqb_neq; lia.
Qed.

(* the raw text between the quotes of a string literal: plain bytes, simple escapes, \uXXXX *)
Inductive str_body : bytes -> Prop :=
| sb_nil : str_body []
| sb_plain c b : (c =? 34) = false -> (c =? 92) = false -> (c <? 32) = false -> str_body b -> str_body (c :: b)
| sb_esc e b : is_simple_escape e = true -> str_body b -> str_body (92 :: e :: b)
| sb_u h1 h2 h3 h4 b : is_hex h1 && is_hex h2 && is_hex h3 && is_hex h4 = true -> str_body b ->
    str_body (92 :: 117 :: h1 :: h2 :: h3 :: h4 :: b).

Lemma scan_string_body b : str_body b -> forall rest, scan_string (b ++ 34 :: rest) = Some (b, rest).
Proof.
  induction 1 as [|c b H34 H92 H32 _ IH|e b He _ IH|h1 h2 h3 h4 b Hx _ IH]; intros rest; cbn [app scan_string].
  - reflexivity.
  - rewrite H34, H92, H32, IH. reflexivity.
  - cbn [Z.eqb Pos.eqb]. rewrite He, IH. reflexivity.
  - cbn [Z.eqb Pos.eqb is_simple_escape orb]. rewrite Hx, IH. reflexivity.
Qed.

(* induction for functions that recurse on tails several bytes further on (scan_string, unquote) *)
Lemma tail_ind {A} (P : list A -> Prop) :
  (forall s, (forall a pre t, s = a :: pre ++ t -> P t) -> P s) -> forall s, P s.
Proof.
  intros H. assert (G : forall s pre t, s = pre ++ t -> P t).
  { induction s as [|x s IH]; intros pre t E; apply H; intros a pre' t' E'; subst t.
    - destruct pre; discriminate.
    - destruct pre as [|b pre]; cbn [app] in E; injection E as _ E; [exact (IH _ _ E)|].
      apply (IH (pre ++ a :: pre') t'). rewrite <- app_assoc. exact E. }
  intros s. exact (G s [] s eq_refl).
Qed.

Lemma scan_string_inv : forall s b rest,
  scan_string s = Some (b, rest) -> str_body b /\ s = b ++ 34 :: rest.
Proof.
  induction s as [[|c r] IH] using tail_ind; intros b rest; [discriminate|]. cbn [scan_string].
  destruct (c =? 34) eqn:E34.
  { intros [= <- <-]. apply Z.eqb_eq in E34. subst c. split; [constructor|reflexivity]. }
  destruct (c =? 92) eqn:E92.
  - apply Z.eqb_eq in E92. subst c. destruct r as [|e r1]; [discriminate|].
    destruct (is_simple_escape e) eqn:Ese.
    + destruct (scan_string r1) as [[b' rest0]|] eqn:S1; [|discriminate]. intros [= <- <-].
      destruct (IH 92 [e] r1 eq_refl _ _ S1) as [B ->]. split; [constructor; assumption|reflexivity].
    + destruct (Z.eqb_spec e 117) as [->|]; [|discriminate].
      destruct r1 as [|h1 [|h2 [|h3 [|h4 r2]]]]; try discriminate.
      destruct (is_hex h1 && is_hex h2 && is_hex h3 && is_hex h4) eqn:X; [|discriminate].
      destruct (scan_string r2) as [[b' rest0]|] eqn:S2; [|discriminate]. intros [= <- <-].
      destruct (IH 92 [117; h1; h2; h3; h4] r2 eq_refl _ _ S2) as [B ->].
      split; [constructor; assumption|reflexivity].
  - destruct (c <? 32) eqn:E32; [discriminate|].
    destruct (scan_string r) as [[b' rest0]|] eqn:S1; [|discriminate]. intros [= <- <-].
    destruct (IH c [] r eq_refl _ _ S1) as [B ->]. split; [constructor; assumption|reflexivity].
Qed.

Lemma str_body_nbq b : str_body b -> no_bare_quote b = true.
Proof.
  induction 1 as [|c b H34 H92 H32 _ IH|e b He _ IH|h1 h2 h3 h4 b Hx _ IH]; cbn [no_bare_quote]; auto.
  - rewrite H34, H92. exact IH.
  - apply andb_true_iff in Hx as [Hx X4]. apply andb_true_iff in Hx as [Hx X3]. apply andb_true_iff in Hx as [X1 X2].
    destruct (is_hex_not_quote _ X1) as [A1 B1]. destruct (is_hex_not_quote _ X2) as [A2 B2].
    destruct (is_hex_not_quote _ X3) as [A3 B3]. destruct (is_hex_not_quote _ X4) as [A4 B4].
    rewrite A1, B1, A2, B2, A3, B3, A4, B4. exact IH.
Qed.
