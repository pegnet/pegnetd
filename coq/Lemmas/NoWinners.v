(* Lemmas/NoWinners.v — C12: a block without winners records no rates.  For every block whose OPR verdict (and, from
   2.0 on, SPR verdict) has no winners, the whole body of the loop (step_block) leaves pn_rate exactly as it was: no
   row for the block's own height (and, by ChainLemmas, none for any other). *)
From Model Require Import Block.
From Lemmas Require Import DbLemmas BlockLemmas ChainLemmas.
From Gen Require Import Consts.
From Coq Require Import Lia.
Open Scope Z_scope.

Definition no_winners (v : option verdict) : Prop :=
  match v with Some v' => v_winners v' = [] | None => True end.

Lemma no_winners_first_assets v : no_winners v -> first_assets v = [].
Proof. destruct v as [v|]; cbn; [intros ->; reflexivity|reflexivity]. Qed.

Section WithCfg.
Variable c : cfg.

Lemma no_winners_choice h g gS :
  no_winners g -> (c_V20HeightActivation c <= h -> no_winners gS) -> rate_choice c h g gS = None.
Proof.
  unfold rate_choice. intros Hg HgS. destruct (Z.ltb_spec h (c_V20HeightActivation c)) as [|Hle].
  - destruct g as [v|]; [cbn in Hg; rewrite Hg|]; reflexivity.
  - rewrite (no_winners_first_assets _ Hg), (no_winners_first_assets _ (HgS Hle)). reflexivity.
Qed.

Lemma no_winners_block_choice cm b g gS :
  (forall g, grade_opr c cm b = Done g -> no_winners g) ->
  (c_V20HeightActivation c <= b_height b -> forall g, grade_spr c cm b = Done g -> no_winners g) ->
  grade_opr c cm b = Done g -> spr_verdict c cm b = Done gS -> rate_choice c (b_height b) g gS = None.
Proof.
  intros Ho Hs Hg HgS. apply no_winners_choice; [exact (Ho _ Hg)|]. intros Hle. apply (Hs Hle).
  unfold spr_verdict in HgS. destruct (Z.leb_spec (c_V20HeightActivation c) (b_height b)); [exact HgS|lia].
Qed.

Lemma sync_block_no_winners_no_rates cm mem b s s' mem' :
  sync_block c cm mem b s = Done (s', mem') ->
  (forall g, grade_opr c cm b = Done g -> no_winners g) ->
  (c_V20HeightActivation c <= b_height b -> forall g, grade_spr c cm b = Done g -> no_winners g) ->
  rates s' = rates s.
Proof.
  intros H Ho Hs. apply (sync_block_no_choice_no_rates c _ _ _ _ _ _ H). intros g gS. apply no_winners_block_choice; assumption.
Qed.

Theorem no_winners_no_rates cm mem b s' mem' :
  step_block c cm mem b = Done (s', mem') ->
  (forall g, grade_opr c cm b = Done g -> no_winners g) ->
  (c_V20HeightActivation c <= b_height b -> forall g, grade_spr c cm b = Done g -> no_winners g) ->
  rates s' = rates cm.
Proof.
  intros H Ho Hs. apply step_block_inv in H as (s1 & H1 & H2).
  apply insert_synced_shape in H2 as (_ & ->). cbn [rates set_synced].
  rewrite (sync_block_no_winners_no_rates _ _ _ _ _ _ H1 Ho Hs).
  symmetry. exact (lwrites_rates _ _ _ _ _ (pre_burn_writes c cm b)).
Qed.

End WithCfg.

(* non-vacuity: block 103 of the example chain has no OPR entries; it applies, and pn_rate is as before; block 104
   (one winner) does record rates, so the statement is not true of every block *)
From Model Require Import Examples.
Example no_winners_no_rates_example :
  match replay ex_cfg genesis empty_cache (firstn 2 ex_chain) with
  | Done (s2, m2) =>
    let b := nth 2 ex_chain (ex_block 0 None None []) in
    grade_opr ex_cfg s2 b = Done None /\ no_winners None /\
    match step_block ex_cfg s2 m2 b with
    | Done (s3, m3) => rates s3 = rates s2 /\
        match step_block ex_cfg s3 m3 (nth 3 ex_chain (ex_block 0 None None [])) with
        | Done (s4, _) => rates s4 <> rates s3
        | _ => False
        end
    | _ => False
    end
  | _ => False
  end.
Proof.
  set (b3 := nth 2 ex_chain _). set (b4 := nth 3 ex_chain _).
  assert (H : match replay ex_cfg genesis empty_cache (firstn 2 ex_chain) with
              | Done (s2, m2) =>
                match grade_opr ex_cfg s2 b3, step_block ex_cfg s2 m2 b3 with
                | Done None, Done (s3, m3) =>
                  match step_block ex_cfg s3 m3 b4 with
                  | Done (s4, _) => negb (is_rated s3 104) && is_rated s4 104
                  | _ => false
                  end
                | _, _ => false
                end
              | _ => false
              end = true) by (vm_compute; reflexivity).
  destruct (replay ex_cfg genesis empty_cache _) as [[s2 m2]| | |]; try discriminate H. cbv zeta.
  destruct (grade_opr ex_cfg s2 b3) as [[|]| | |] eqn:Eg; try discriminate H.
  destruct (step_block ex_cfg s2 m2 b3) as [[s3 m3]| | |] eqn:E3; try discriminate H.
  split; [reflexivity|]. split; [exact I|]. split.
  - apply (no_winners_no_rates _ _ _ _ _ _ E3).
    + intros g Hg. rewrite Eg in Hg. inversion Hg. exact I.
    + intros Hle. vm_compute in Hle. contradiction Hle. reflexivity.
  - destruct (step_block ex_cfg s3 m3 b4) as [[s4 m4]| | |]; try discriminate H.
    intros E. unfold is_rated in H. rewrite E in H. destruct (rates s3 !! 104); discriminate H.
Qed.
