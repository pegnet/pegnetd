(* Lemmas/ApiLemmas.v — C17: "each recorded action is returned exactly once by hash, address and height
   queries across pages" for the history queries of Model/Api.v (node/pegnet/txhistory_util.go
   historyQueryBuilder, txhistory.go historySelectHelper, SelectTransactionHistoryStatus). *)
From Model Require Import Api.
From Lemmas Require Import DbLemmas StatusLemmas.

Open Scope Z_scope.


Lemma flat_map_nil_all {A B} (g : A -> list B) l : (forall y, In y l -> g y = []) -> flat_map g l = [].
Proof.
  induction l as [|y l IH]; intros Hg; cbn [flat_map]; [reflexivity|].
  rewrite (Hg y (or_introl eq_refl)), IH; [reflexivity|]. intros z Hz. apply Hg. right. exact Hz.
Qed.

Lemma flat_map_ext_In {A B} (f g : A -> list B) l : (forall y, In y l -> f y = g y) -> flat_map f l = flat_map g l.
Proof.
  induction l as [|y l IH]; intros Hg; cbn [flat_map]; [reflexivity|].
  rewrite (Hg y (or_introl eq_refl)), IH; [reflexivity|]. intros z Hz. apply Hg. right. exact Hz.
Qed.

Lemma flat_map_app_perm {A B} (f g : A -> list B) l :
  Permutation (flat_map (fun x => f x ++ g x) l) (flat_map f l ++ flat_map g l).
Proof.
  induction l as [|x l IH]; cbn [flat_map]; [constructor|].
  rewrite IH. rewrite <- !app_assoc. apply Permutation_app_head.
  rewrite !app_assoc. apply Permutation_app_tail. apply Permutation_app_comm.
Qed.

Lemma flat_map_swap {A B C} (F : A -> B -> list C) (la : list A) (lb : list B) :
  Permutation (flat_map (fun a => flat_map (fun b => F a b) lb) la)
              (flat_map (fun b => flat_map (fun a => F a b) la) lb).
Proof.
  induction la as [|a la IH]; cbn [flat_map].
  - rewrite flat_map_nil_all; [constructor|reflexivity].
  - rewrite IH. symmetry. apply flat_map_app_perm.
Qed.

Lemma filter_nil {A} (p : A -> bool) l : (forall z, In z l -> p z = false) -> filter p l = [].
Proof.
  induction l as [|z l IH]; intros H; [reflexivity|]. cbn [filter]. rewrite (H z (or_introl eq_refl)).
  apply IH. intros w Hw. apply H. right; exact Hw.
Qed.

Lemma filter_unique {A K} (f : A -> K) (p : A -> bool) l b :
  NoDup (map f l) -> In b l -> (forall y, In y l -> p y = true -> f y = f b) -> filter p l = if p b then [b] else [].
Proof.
  induction l as [|y l IH]; intros Hnd Hin Hp; [destruct Hin|].
  cbn [map] in Hnd. inversion Hnd as [|k r Hnotin Hnd']; subst k r. cbn [filter].
  destruct Hin as [->|Hin].
  - rewrite (filter_nil p l); [reflexivity|]. intros z Hz. destruct (p z) eqn:E; [|reflexivity].
    exfalso. apply Hnotin. rewrite <- (Hp z (or_intror Hz) E). apply in_map. exact Hz.
  - destruct (p y) eqn:E.
    + exfalso. apply Hnotin. rewrite (Hp y (or_introl eq_refl) E). apply in_map. exact Hin.
    + apply IH; [exact Hnd'|exact Hin|]. intros z Hz. apply Hp. right. exact Hz.
Qed.
Lemma flat_map_filter {A B} (p : A -> bool) (G : A -> list B) l : flat_map (fun y => if p y then G y else []) l = flat_map G (filter p l).
Proof. induction l as [|y l IH]; [reflexivity|]. cbn [flat_map filter]. destruct (p y); cbn [flat_map app]; rewrite IH; reflexivity. Qed.
Lemma existsb_filter {A} (p : A -> bool) l : existsb p l = match filter p l with [] => false | _ => true end.
Proof. induction l as [|y l IH]; [reflexivity|]. cbn [existsb filter]. destruct (p y); [reflexivity|exact IH]. Qed.
Lemma find_filter {A} (p : A -> bool) l : find p l = hd_error (filter p l).
Proof. induction l as [|y l IH]; [reflexivity|]. cbn [find filter]. destruct (p y); [reflexivity|exact IH]. Qed.

Lemma flat_map_unique_gen {A B K} (f : A -> K) (p : A -> bool) (G : A -> list B) l b :
  NoDup (map f l) -> In b l -> (forall y, In y l -> p y = true -> f y = f b) ->
  flat_map (fun y => if p y then G y else []) l = if p b then G b else [].
Proof. intros. rewrite flat_map_filter, (filter_unique f p l b) by assumption. destruct (p b); [apply app_nil_r|reflexivity]. Qed.
Lemma flat_map_unique {A B K} (f : A -> K) (p : A -> bool) (G : A -> list B) l b :
  NoDup (map f l) -> In b l -> p b = true -> (forall y, In y l -> p y = true -> f y = f b) ->
  flat_map (fun y => if p y then G y else []) l = G b.
Proof. intros Hnd Hin Hpb Hp. rewrite (flat_map_unique_gen f p G l b Hnd Hin Hp), Hpb. reflexivity. Qed.
Lemma existsb_unique {A K} (f : A -> K) (p : A -> bool) l b :
  NoDup (map f l) -> In b l -> (forall y, In y l -> p y = true -> f y = f b) -> existsb p l = p b.
Proof. intros. rewrite existsb_filter, (filter_unique f p l b) by assumption. destruct (p b); reflexivity. Qed.

Lemma flat_map_length_sum {A B} (g : A -> list B) l :
  length (flat_map g l) = fold_right (fun x acc => (length (g x) + acc)%nat) O l.
Proof. induction l as [|x l IH]; cbn [flat_map fold_right]; [reflexivity|]. rewrite app_length, IH. reflexivity. Qed.

Lemma flat_map_omap {A B C} (f : A -> option B) (g : B -> list C) l :
  flat_map g (omap f l) = flat_map (fun x => match f x with Some y => g y | None => [] end) l.
Proof. induction l as [|x l IH]; [reflexivity|]. cbn [omap list_omap flat_map]. destruct (f x); cbn [flat_map]; rewrite IH; reflexivity. Qed.

Lemma omap_filter {A B} (p : A -> bool) (g : A -> B) l : omap (fun t => if p t then Some (g t) else None) l = map g (filter p l).
Proof. induction l as [|t l IH]; [reflexivity|]. cbn [omap list_omap filter]. destruct (p t); cbn [map]; rewrite <- IH; reflexivity. Qed.

(* srv/methods.go getTransactions hands out nextoffset = offset + len(actions) while that is below the count: a
   client that follows it from 0 reads the whole data query, provided the count query counts the data query *)
Lemma walk_pages_skipn s q : query_count s q = length (query_all s q) ->
  forall fuel off, (length (query_all s q) - off <= fuel * QueryLimit)%nat ->
  walk_pages fuel s q off = skipn off (query_all s q).
Proof.
  intros Hc. induction fuel as [|k IH]; intros off Hf.
  - cbn [walk_pages]. symmetry. apply skipn_all2. lia.
  - cbn [walk_pages]. unfold query_page. rewrite Hc.
    destruct (Nat.eqb (length (query_all s q)) 0) eqn:E0.
    + apply Nat.eqb_eq in E0. destruct (Nat.ltb (off + QueryLimit) 0) eqn:El; [apply Nat.ltb_lt in El; lia|].
      cbn [app]. symmetry. apply skipn_all2. lia.
    + destruct (Nat.ltb (length (query_all s q)) off) eqn:E1.
      * apply Nat.ltb_lt in E1. symmetry. apply skipn_all2. lia.
      * destruct (Nat.ltb (off + QueryLimit) (length (query_all s q))) eqn:E2.
        -- apply Nat.ltb_lt in E2. rewrite IH.
           ++ apply firstn_skipn_next.
           ++ unfold QueryLimit in *. lia.
        -- apply Nat.ltb_ge in E2. rewrite app_nil_r. apply firstn_all2. rewrite skipn_length. lia.
Qed.

Theorem walk_pages_all s q fuel :
  query_count s q = length (query_all s q) -> (S (length (query_all s q)) <= fuel)%nat ->
  walk_pages fuel s q 0 = query_all s q.
Proof.
  intros Hc Hf. rewrite (walk_pages_skipn s q Hc); [reflexivity|]. unfold QueryLimit. lia.
Qed.
Print Assumptions walk_pages_all.

(* SelectTransactionHistoryStatus reads the first batch row of the hash; under hist_wf there is no other *)
Lemma find_nodup L b : NoDup (map hb_hash L) -> In b L -> find (fun b' => hb_hash b' =? hb_hash b) L = Some b.
Proof.
  intros Hnd Hin. rewrite find_filter, (filter_unique hb_hash _ L b Hnd Hin), Z.eqb_refl; [reflexivity|].
  intros y _ E. apply Z.eqb_eq; exact E.
Qed.
Lemma find_absent L hs : ~ In hs (map hb_hash L) -> find (fun b' => hb_hash b' =? hs) L = None.
Proof.
  intros Hn. rewrite find_filter, filter_nil; [reflexivity|]. intros y Hy. apply Z.eqb_neq. intros E.
  apply Hn. rewrite <- E. apply in_map. exact Hy.
Qed.

Theorem query_status_spec s b : hist_wf s -> In b (hist s) -> query_status s (hb_hash b) = (hb_height b, hb_exec b).
Proof. intros Hwf Hin. unfold query_status. rewrite (find_nodup _ _ (wf_batch_once s Hwf) Hin). reflexivity. Qed.
Print Assumptions query_status_spec.
Theorem query_status_absent s hs : ~ In hs (map hb_hash (hist s)) -> query_status s hs = (0, 0).
Proof. intros Hn. unfold query_status. rewrite (find_absent _ _ Hn). reflexivity. Qed.
Print Assumptions query_status_absent.

(* the batch rows in the order of the data query: ORDER BY batch.history_id ASC | DESC *)
Definition order_of (s : db) (q : hq) : list hbatch := if q_desc q then rev (hist s) else hist s.
Lemma order_of_perm s q : Permutation (order_of s q) (hist s).
Proof. unfold order_of. destruct (q_desc q); [symmetry; apply Permutation_rev|reflexivity]. Qed.
Lemma order_of_nodup s q : hist_wf s -> NoDup (map hb_hash (order_of s q)).
Proof. intros Hwf. rewrite (order_of_perm s q). exact (wf_batch_once s Hwf). Qed.
Lemma order_of_In s q b : In b (order_of s q) <-> In b (hist s).
Proof. rewrite (order_of_perm s q). reflexivity. Qed.

Lemma batch_actions_ones (l : list htx) b :
  batch_actions (map (fun t => (t, 1%nat)) l) b = map htx_key (filter (fun t => ht_hash t =? hb_hash b) l).
Proof.
  unfold batch_actions. induction l as [|t l IH]; [reflexivity|].
  cbn [map flat_map filter fst snd]. rewrite IH.
  destruct (ht_hash t =? hb_hash b); reflexivity.
Qed.

Definition flip_desc (q : hq) : hq :=
  {| q_field := q_field q; q_desc := negb (q_desc q); q_actions := q_actions q; q_asset := q_asset q;
     q_txindex := q_txindex q |}.

Lemma query_all_order s q :
  query_all s q = flat_map (fun b => if batch_selected q b then batch_actions (candidates s q) b else []) (order_of s q).
Proof. reflexivity. Qed.

Lemma query_all_perm_asc s q :
  Permutation (query_all s q)
              (flat_map (fun b => if batch_selected q b then batch_actions (candidates s q) b else []) (hist s)).
Proof. rewrite query_all_order. apply Permutation_flat_map. apply order_of_perm. Qed.

(* the order flag is read by the ORDER BY clause only *)
Theorem desc_is_permutation_gen s q q' :
  q_field q' = q_field q -> q_actions q' = q_actions q -> q_asset q' = q_asset q -> q_txindex q' = q_txindex q ->
  Permutation (query_all s q') (query_all s q).
Proof.
  intros H1 H2 H3 H4. rewrite (query_all_perm_asc s q'), (query_all_perm_asc s q).
  destruct q as [f d ac ast ti], q' as [f' d' ac' ast' ti']. cbn in H1, H2, H3, H4. subst f' ac' ast' ti'. reflexivity.
Qed.

Theorem desc_is_permutation s q : Permutation (query_all s (flip_desc q)) (query_all s q).
Proof. apply desc_is_permutation_gen; reflexivity. Qed.
Print Assumptions desc_is_permutation.

(* the join read transaction row by transaction row *)
Lemma query_all_swap s q :
  Permutation (query_all s q)
    (flat_map (fun tn => flat_map (fun b => if batch_selected q b && (ht_hash (fst tn) =? hb_hash b)
                                           then repeat (htx_key (fst tn)) (snd tn) else []) (hist s))
              (candidates s q)).
Proof.
  rewrite query_all_perm_asc.
  rewrite <- (flat_map_swap (fun b tn => if batch_selected q b && (ht_hash (fst tn) =? hb_hash b)
                                         then repeat (htx_key (fst tn)) (snd tn) else []) (hist s) (candidates s q)).
  erewrite flat_map_ext; [reflexivity|]. intros b. cbv beta.
  destruct (batch_selected q b); cbn [andb].
  - reflexivity.
  - symmetry. apply flat_map_nil_all. reflexivity.
Qed.

(* how often a pn_history_transaction row occurs in [candidates]: once, or once per lookup row of the address, when
   it passes the conditions on tx (for the entry-hash field the model tests the hash on this row as well as on the
   batch row; the SQL text has batch.entry_hash = ? and the join condition) *)
Definition mult (s : db) (q : hq) (t : htx) : nat :=
  if tx_filter q t then
    match q_field q with
    | ByHash h => if ht_hash t =? h then 1%nat else O
    | ByAddress a => key_count (addr_keys s a) (ht_hash t) (ht_index t)
    | ByHeight _ => 1%nat
    end
  else O.

Lemma flat_candidates {B} (G : htx -> nat -> list B) s q : (forall t, G t O = []) ->
  flat_map (fun tn => G (fst tn) (snd tn)) (candidates s q) = flat_map (fun t => G t (mult s q t)) (htxs s).
Proof.
  intros G0. unfold candidates, mult. destruct (q_field q) as [h|a|h]; cbv zeta; rewrite flat_map_omap; apply flat_map_ext; intros t.
  - destruct (tx_filter q t), (ht_hash t =? h); cbn [andb fst snd]; rewrite ?G0; reflexivity.
  - destruct (tx_filter q t); [|rewrite G0; reflexivity].
    destruct (key_count (addr_keys s a) (ht_hash t) (ht_index t)); cbn [fst snd]; rewrite ?G0; reflexivity.
  - destruct (tx_filter q t); cbn [fst snd]; rewrite ?G0; reflexivity.
Qed.

Lemma batch_of_tx s t : hist_wf s -> In t (htxs s) -> exists b, In b (hist s) /\ hb_hash b = ht_hash t.
Proof.
  intros Hwf Hin. pose proof (wf_tx_fk s Hwf t Hin) as H. apply in_map_iff in H. destruct H as [b [H1 H2]].
  exists b. split; assumption.
Qed.

(* under hist_wf every transaction row joins exactly one batch row: the query returns each row [mult] times when
   that batch row is selected, and not at all otherwise *)
Lemma query_all_by_tx s q : hist_wf s ->
  Permutation (query_all s q)
    (flat_map (fun t => if existsb (fun b => batch_selected q b && (ht_hash t =? hb_hash b)) (hist s)
                        then repeat (htx_key t) (mult s q t) else []) (htxs s)).
Proof.
  intros Hwf. rewrite query_all_swap.
  rewrite (flat_candidates (fun t n => flat_map (fun b => if batch_selected q b && (ht_hash t =? hb_hash b)
                                                         then repeat (htx_key t) n else []) (hist s))).
  - erewrite flat_map_ext_In; [reflexivity|]. intros t Hin. destruct (batch_of_tx s t Hwf Hin) as [b0 [Hb0 Hh]].
    assert (Hu : forall y, In y (hist s) -> batch_selected q y && (ht_hash t =? hb_hash y) = true -> hb_hash y = hb_hash b0).
    { intros y _ E. apply andb_true_iff in E. destruct E as [_ E]. apply Z.eqb_eq in E. rewrite Hh. symmetry. exact E. }
    rewrite (flat_map_unique_gen hb_hash _ (fun _ => repeat (htx_key t) (mult s q t)) (hist s) b0 (wf_batch_once s Hwf) Hb0 Hu).
    rewrite (existsb_unique hb_hash _ (hist s) b0 (wf_batch_once s Hwf) Hb0 Hu). reflexivity.
  - intros t. apply flat_map_nil_all. intros b _. destruct (batch_selected q b && (ht_hash t =? hb_hash b)); reflexivity.
Qed.

(* the address field selects every batch row *)
Lemma address_query_perm s q a : hist_wf s -> q_field q = ByAddress a ->
  Permutation (query_all s q) (flat_map (fun t => repeat (htx_key t) (mult s q t)) (htxs s)).
Proof.
  intros Hwf Hf. rewrite (query_all_by_tx s q Hwf). erewrite flat_map_ext_In; [reflexivity|].
  intros t Hin. destruct (batch_of_tx s t Hwf Hin) as [b0 [Hb0 Hh]].
  replace (existsb _ (hist s)) with true; [reflexivity|]. symmetry. apply existsb_exists. exists b0. split; [exact Hb0|].
  unfold batch_selected. rewrite Hf, Hh, Z.eqb_refl. reflexivity.
Qed.

Lemma length_flat_repeat (l : list (htx * nat)) :
  length (flat_map (fun tn => repeat (htx_key (fst tn)) (snd tn)) l) = fold_right (fun tn acc => (snd tn + acc)%nat) O l.
Proof. induction l as [|x l IH]; [reflexivity|]. cbn [flat_map fold_right]. rewrite app_length, repeat_length, IH. reflexivity. Qed.

Lemma keys_perm (keys : list (hash * Z)) (T : list htx) :
  NoDup (map htx_key T) -> (forall k, In k keys -> In k (map htx_key T)) ->
  Permutation keys (flat_map (fun t => repeat (htx_key t) (key_count keys (ht_hash t) (ht_index t))) T).
Proof.
  intros Hnd. induction keys as [|k keys IH]; intros Hin.
  - rewrite flat_map_nil_all; [constructor|reflexivity].
  - assert (Hk : In k (map htx_key T)) by (apply Hin; left; reflexivity).
    apply in_map_iff in Hk. destruct Hk as [t0 [Hk Ht0]].
    erewrite (flat_map_ext _ (fun t => (if (fst k =? ht_hash t) && (snd k =? ht_index t) then [htx_key t] else [])
                                       ++ repeat (htx_key t) (key_count keys (ht_hash t) (ht_index t)))).
    + rewrite flat_map_app_perm.
      rewrite (flat_map_unique htx_key (fun t => (fst k =? ht_hash t) && (snd k =? ht_index t)) (fun t => [htx_key t]) T t0).
      * rewrite Hk. cbn [app]. constructor. apply IH. intros k' Hk'. apply Hin. right. exact Hk'.
      * exact Hnd.
      * exact Ht0.
      * rewrite <- Hk. unfold htx_key. cbn [fst snd]. rewrite !Z.eqb_refl. reflexivity.
      * intros y _ E. apply andb_true_iff in E. destruct E as [E1 E2]. apply Z.eqb_eq in E1, E2.
        rewrite Hk. unfold htx_key. rewrite <- E1, <- E2. destruct k; reflexivity.
    + intros t. unfold key_count. cbn [filter]. clear Hk Hin IH. destruct k as [k1 k2]. cbn [fst snd].
      destruct ((k1 =? ht_hash t) && (k2 =? ht_index t)); reflexivity.
Qed.

Lemma addr_keys_fk s a : hist_wf s -> forall k, In k (addr_keys s a) -> In k (map htx_key (htxs s)).
Proof.
  intros Hwf k Hin. unfold addr_keys in Hin. apply in_map_iff in Hin. destruct Hin as [l [Hl Hin]].
  apply filter_In in Hin. destruct Hin as [Hin _]. rewrite <- Hl. exact (wf_lookup_fk s Hwf l Hin).
Qed.

(* each action that involves the address (has a lookup row) is returned exactly once *)
Theorem address_query_complete s q a :
  hist_wf s -> q_field q = ByAddress a -> q_actions q = [] -> q_asset q = None ->
  Permutation (query_all s q) (addr_keys s a).
Proof.
  intros Hwf Hf Hac Has. rewrite (address_query_perm s q a Hwf Hf).
  unfold mult, tx_filter. rewrite Hf, Hac, Has. cbn [andb].
  symmetry. apply keys_perm; [exact (wf_tx_pk s Hwf)|apply addr_keys_fk; exact Hwf].
Qed.
Print Assumptions address_query_complete.

(* the count query (one of three SQL texts, historyQueryBuilder) agrees with the data query, every field and every
   filter *)
Theorem count_is_length s q : hist_wf s -> query_count s q = length (query_all s q).
Proof.
  intros Hwf. unfold query_count. destruct (q_field q) as [h|a|h] eqn:Hf; [reflexivity| |reflexivity].
  assert (Hgen : fold_right (fun tn acc => (snd tn + acc)%nat) O (candidates s q) = length (query_all s q)).
  { rewrite (Permutation_length (address_query_perm s q a Hwf Hf)).
    rewrite <- (flat_candidates (fun t n => repeat (htx_key t) n)) by reflexivity. symmetry. apply length_flat_repeat. }
  destruct (q_actions q) as [|x acts] eqn:Hac; [|exact Hgen].
  destruct (q_asset q) as [x|] eqn:Has; [exact Hgen|].
  symmetry. apply Permutation_length. apply address_query_complete; assumption.
Qed.
Print Assumptions count_is_length.

(* under hist_wf the walk over the pages returns the whole result, in order *)
Theorem walk_pages_all_wf s q fuel : hist_wf s -> (S (length (query_all s q)) <= fuel)%nat ->
  walk_pages fuel s q 0 = query_all s q.
Proof. intros Hwf. apply walk_pages_all. apply count_is_length. exact Hwf. Qed.
Print Assumptions walk_pages_all_wf.

Lemma addr_keys_In s a k : In k (addr_keys s a) <-> In (k, a) (lookups s).
Proof.
  unfold addr_keys. rewrite in_map_iff. split.
  - intros [l [Hl Hin]]. apply filter_In in Hin. destruct Hin as [Hin E]. apply Z.eqb_eq in E.
    destruct l as [k' a']. cbn [fst snd] in Hl, E. subst k' a'. exact Hin.
  - intros Hin. exists (k, a). split; [reflexivity|]. apply filter_In. split; [exact Hin|]. cbn [snd]. apply Z.eqb_refl.
Qed.
Lemma addr_keys_nodup s a : NoDup (lookups s) -> NoDup (addr_keys s a).
Proof.
  unfold addr_keys. induction (lookups s) as [|l L IH]; intros Hnd; [constructor|].
  inversion Hnd as [|x r Hnotin Hnd']; subst x r. destruct l as [k x]. cbn [filter snd].
  destruct (x =? a) eqn:E; [|exact (IH Hnd')].
  cbn [map fst]. constructor; [|exact (IH Hnd')].
  intros Hin. apply in_map_iff in Hin. destruct Hin as [l' [Hl' Hin]]. apply filter_In in Hin. destruct Hin as [Hin E'].
  apply Z.eqb_eq in E, E'. apply Hnotin. destruct l' as [k' x']. cbn [fst snd] in *. subst. exact Hin.
Qed.

(* the unfiltered address query returns exactly the (hash, index) pairs that have a lookup row for the address,
   and no pair twice *)
Theorem address_query_exactly_once s q a :
  hist_wf s -> q_field q = ByAddress a -> q_actions q = [] -> q_asset q = None ->
  NoDup (query_all s q) /\ forall k, In k (query_all s q) <-> In (k, a) (lookups s).
Proof.
  intros Hwf Hf Hac Has. pose proof (address_query_complete s q a Hwf Hf Hac Has) as HP. split.
  - apply (Permutation_NoDup (Permutation_sym HP)). apply addr_keys_nodup. exact (wf_lookup_pk s Hwf).
  - intros k. rewrite <- addr_keys_In. split; apply Permutation_in; [exact HP|symmetry; exact HP].
Qed.
Print Assumptions address_query_exactly_once.

Lemma nodup_map_filter {A B} (f : A -> B) (p : A -> bool) l : NoDup (map f l) -> NoDup (map f (filter p l)).
Proof.
  induction l as [|x l IH]; intros Hnd; [constructor|].
  cbn [map] in Hnd. inversion Hnd as [|k r Hnotin Hnd']; subst k r. cbn [filter].
  destruct (p x); [|exact (IH Hnd')]. cbn [map]. constructor; [|exact (IH Hnd')].
  intros Hin. apply Hnotin. apply in_map_iff in Hin. destruct Hin as [y [Hy Hin]]. apply filter_In in Hin.
  rewrite <- Hy. apply in_map. apply Hin.
Qed.

Lemma filter_filter_sub {A} (p r : A -> bool) l : (forall x, r x = true -> p x = true) -> filter p (filter r l) = filter r l.
Proof.
  intros Hs. induction l as [|x l IH]; [reflexivity|]. cbn [filter]. destruct (r x) eqn:E; [|exact IH].
  cbn [filter]. rewrite (Hs x E), IH. reflexivity.
Qed.
Lemma candidates_hash s q h : q_field q = ByHash h ->
  candidates s q = map (fun t => (t, 1%nat)) (filter (fun t => (ht_hash t =? h) && tx_filter q t) (htxs s)).
Proof. intros Hf. unfold candidates. rewrite Hf. apply omap_filter. Qed.
(* the entry-hash field, any filter: the one batch row of the hash is selected, and every action of it that passes *)
Theorem hash_query_filtered s q h :
  hist_wf s -> q_field q = ByHash h -> In h (map hb_hash (hist s)) ->
  query_all s q = map htx_key (filter (fun t => (ht_hash t =? h) && tx_filter q t) (htxs s)).
Proof.
  intros Hwf Hf Hin. apply in_map_iff in Hin. destruct Hin as [b0 [Hb0 Hin]].
  rewrite query_all_order, (candidates_hash s q h Hf).
  rewrite (flat_map_unique hb_hash (batch_selected q) _ (order_of s q) b0).
  - rewrite batch_actions_ones, Hb0. apply f_equal. apply filter_filter_sub.
    intros x E. apply andb_true_iff in E. apply E.
  - apply order_of_nodup. exact Hwf.
  - apply order_of_In. exact Hin.
  - unfold batch_selected. rewrite Hf. apply Z.eqb_eq. exact Hb0.
  - intros y _. unfold batch_selected. rewrite Hf. intros E. apply Z.eqb_eq in E. rewrite E, Hb0. reflexivity.
Qed.
Print Assumptions hash_query_filtered.
(* without filters: all the recorded actions of that entry *)
Theorem hash_query_complete s q h :
  hist_wf s -> q_field q = ByHash h -> q_actions q = [] -> q_asset q = None -> q_txindex q = None ->
  In h (map hb_hash (hist s)) ->
  query_all s q = map htx_key (filter (fun t => ht_hash t =? h) (htxs s)).
Proof.
  intros Hwf Hf Hac Has Hti Hin. rewrite (hash_query_filtered s q h Hwf Hf Hin). f_equal.
  apply filter_ext. intros t. unfold tx_filter. rewrite Hf, Hti, Has, Hac. apply andb_true_r.
Qed.
Print Assumptions hash_query_complete.
Theorem hash_query_absent s q h : q_field q = ByHash h -> ~ In h (map hb_hash (hist s)) -> query_all s q = [].
Proof.
  intros Hf Hn. rewrite query_all_order, flat_map_nil_all; [reflexivity|].
  intros b Hb. unfold batch_selected. rewrite Hf. destruct (hb_hash b =? h) eqn:E; [|reflexivity].
  exfalso. apply Hn. apply Z.eqb_eq in E. rewrite <- E. apply in_map. apply order_of_In in Hb. exact Hb.
Qed.
Theorem hash_query_nodup s q h : hist_wf s -> q_field q = ByHash h -> NoDup (query_all s q).
Proof.
  intros Hwf Hf. destruct (in_dec Z.eq_dec h (map hb_hash (hist s))) as [Hin|Hn].
  - rewrite (hash_query_filtered s q h Hwf Hf Hin). apply nodup_map_filter. exact (wf_tx_pk s Hwf).
  - rewrite (hash_query_absent s q h Hf Hn). constructor.
Qed.

Lemma candidates_height s q hh : q_field q = ByHeight hh ->
  candidates s q = map (fun t => (t, 1%nat)) (filter (tx_filter q) (htxs s)).
Proof. intros Hf. unfold candidates. rewrite Hf. apply omap_filter. Qed.
(* exact list, no well-formedness needed: the batches of that height in history_id order (or reversed), each with
   its actions *)
Theorem height_query_exact s q hh : q_field q = ByHeight hh ->
  query_all s q = flat_map (fun b => map htx_key (filter (fun t => ht_hash t =? hb_hash b) (filter (tx_filter q) (htxs s))))
                           (filter (fun b => hb_height b =? hh) (order_of s q)).
Proof.
  intros Hf. rewrite query_all_order, (candidates_height s q hh Hf), flat_map_filter.
  unfold batch_selected. rewrite Hf. apply flat_map_ext. intros b. apply batch_actions_ones.
Qed.
Print Assumptions height_query_exact.

(* under hist_wf: the recorded actions whose batch has that height, each once *)
Definition at_height (s : db) (hh : Z) (t : htx) : bool :=
  existsb (fun b => (hb_hash b =? ht_hash t) && (hb_height b =? hh)) (hist s).
Lemma at_height_join s q hh t : q_field q = ByHeight hh ->
  existsb (fun b => batch_selected q b && (ht_hash t =? hb_hash b)) (hist s) = at_height s hh t.
Proof.
  intros Hf. unfold at_height, batch_selected. rewrite Hf. induction (hist s) as [|b L IH]; [reflexivity|].
  cbn [existsb]. rewrite IH, (Z.eqb_sym (ht_hash t)), (andb_comm (hb_height b =? hh)). reflexivity.
Qed.
Theorem height_query_complete s q hh :
  hist_wf s -> q_field q = ByHeight hh -> q_actions q = [] -> q_asset q = None ->
  Permutation (query_all s q) (map htx_key (filter (at_height s hh) (htxs s))).
Proof.
  intros Hwf Hf Hac Has. rewrite (query_all_by_tx s q Hwf). unfold mult, tx_filter. rewrite Hf, Hac, Has. cbn [andb].
  induction (htxs s) as [|t T IH]; [constructor|]. cbn [map flat_map filter].
  rewrite (at_height_join s q hh t Hf). destruct (at_height s hh t); cbn [repeat map app]; [constructor|]; exact IH.
Qed.
Print Assumptions height_query_complete.
Theorem height_query_nodup s q hh :
  hist_wf s -> q_field q = ByHeight hh -> q_actions q = [] -> q_asset q = None -> NoDup (query_all s q).
Proof.
  intros Hwf Hf Hac Has. apply (Permutation_NoDup (Permutation_sym (height_query_complete s q hh Hwf Hf Hac Has))).
  apply nodup_map_filter. exact (wf_tx_pk s Hwf).
Qed.

Definition ex_b (hs hh ex : Z) : hbatch := {| hb_hash := hs; hb_height := hh; hb_order := 0; hb_ts := 0; hb_exec := ex |}.
Definition ex_t (hs i act : Z) (from : addr) (fa ta : Z) : htx :=
  {| ht_hash := hs; ht_index := i; ht_action := act; ht_from := from; ht_from_asset := fa; ht_from_amount := 1;
     ht_to_asset := ta; ht_to_amount := 0; ht_outputs := [] |}.
Definition ex_api_db : db :=
  set_htxs (set_hist empty_db [ex_b 11 100 100; ex_b 12 100 0; ex_b 13 101 (-1)])
           [ex_t 11 0 1 5 1 0; ex_t 11 1 2 5 1 2; ex_t 12 0 1 6 2 0; ex_t 13 0 2 5 2 1]
           [(11, 0, 5); (11, 0, 6); (11, 1, 5); (12, 0, 6); (13, 0, 5); (13, 0, 6)].
Definition ex_q (f : hq_field) (d : bool) : hq := {| q_field := f; q_desc := d; q_actions := []; q_asset := None; q_txindex := None |}.

Ltac nodup_Z := repeat (constructor; [cbn [In]; intros Hx; repeat (destruct Hx as [Hx|Hx]; [discriminate Hx|]); exact Hx|]); constructor.
Lemma ex_api_db_wf : hist_wf ex_api_db.
Proof.
  constructor.
  - vm_compute. nodup_Z.
  - vm_compute. nodup_Z.
  - vm_compute. nodup_Z.
  - intros l Hin. vm_compute in Hin. repeat (destruct Hin as [Hin|Hin]; [subst l; vm_compute; tauto|]). destruct Hin.
  - intros t Hin. vm_compute in Hin. repeat (destruct Hin as [Hin|Hin]; [subst t; vm_compute; tauto|]). destruct Hin.
Qed.

Example ex_address_walk :
  walk_pages 5 ex_api_db (ex_q (ByAddress 5) false) 0 = [(11, 0); (11, 1); (13, 0)] /\
  walk_pages 5 ex_api_db (ex_q (ByAddress 5) true) 0 = [(13, 0); (11, 0); (11, 1)] /\
  query_count ex_api_db (ex_q (ByAddress 5) false) = 3%nat /\
  walk_pages 5 ex_api_db (ex_q (ByHash 11) false) 0 = [(11, 0); (11, 1)] /\
  walk_pages 5 ex_api_db (ex_q (ByHeight 100) false) 0 = [(11, 0); (11, 1); (12, 0)] /\
  walk_pages 5 ex_api_db {| q_field := ByAddress 6; q_desc := false; q_actions := [1]; q_asset := Some 2; q_txindex := None |} 0 = [(12, 0)] /\
  query_status ex_api_db 13 = (101, -1) /\ query_status ex_api_db 99 = (0, 0).
Proof. vm_compute. repeat split; reflexivity. Qed.

Example ex_address_walk_by_theorem :
  walk_pages 4 ex_api_db (ex_q (ByAddress 5) false) 0 = query_all ex_api_db (ex_q (ByAddress 5) false) /\
  Permutation (query_all ex_api_db (ex_q (ByAddress 5) false)) [(11, 0); (11, 1); (13, 0)].
Proof.
  split.
  - apply walk_pages_all_wf; [exact ex_api_db_wf|]. vm_compute. lia.
  - exact (address_query_complete ex_api_db (ex_q (ByAddress 5) false) 5 ex_api_db_wf eq_refl eq_refl eq_refl).
Qed.

(* more than one page: one entry with 120 actions is walked in three pages of 50, 50 and 20 rows *)
Definition ex_big_db : db :=
  set_htxs (set_hist empty_db [ex_b 7 100 100])
           (map (fun i => ex_t 7 (Z.of_nat i) 1 5 1 0) (seq 0 120)) [].
Example ex_three_pages :
  let q := ex_q (ByHash 7) false in
  walk_pages 3 ex_big_db q 0 = query_all ex_big_db q /\
  length (query_all ex_big_db q) = 120%nat /\
  walk_pages 2 ex_big_db q 0 = firstn 100 (query_all ex_big_db q) /\
  (exists rows, query_page ex_big_db q 100 = Page 120 rows /\ length rows = 20%nat) /\
  query_page ex_big_db q 121 = PageErr /\
  query_page ex_big_db q 120 = Page 120 [].
Proof. vm_compute. repeat split; try reflexivity. eexists. split; reflexivity. Qed.

(* what hist_wf is needed for: counter-examples
   (a) wf_batch_once is NOT implied by the schema: pn_history_txbatch has UNIQUE(entry_hash, height) only, and
       [insert_hbatch] accepts a second batch row with the same hash at another height.  Every action of the hash
       is then joined to both batch rows: the data query has twice the rows, the lookup count does not, and
       the walk over the pages of the address query stops before the end (rows are omitted).
   (b) without wf_tx_fk (a transaction row without batch row) the unfiltered address count exceeds the data. *)
Definition ex_dup_db : db :=
  set_htxs (set_hist empty_db [ex_b 7 100 100])
           (map (fun i => ex_t 7 (Z.of_nat i) 1 5 1 0) (seq 0 60))
           (map (fun i => (7, Z.of_nat i, 5)) (seq 0 60)).
Example dup_hash_breaks_count :
  exists s', insert_hbatch ex_dup_db (ex_b 7 101 0) = Ok s' /\
    let q := ex_q (ByAddress 5) false in
    query_count s' q = 60%nat /\ length (query_all s' q) = 120%nat /\
    length (walk_pages 10 s' q 0) = 100%nat /\
    query_all s' (ex_q (ByHash 7) false) = query_all ex_dup_db (ex_q (ByHash 7) false) ++ query_all ex_dup_db (ex_q (ByHash 7) false) /\
    query_count ex_dup_db q = 60%nat /\ length (query_all ex_dup_db q) = 60%nat.
Proof.
  exists (set_hist ex_dup_db (hist ex_dup_db ++ [ex_b 7 101 0])). split; [reflexivity|].
  vm_compute. repeat split; reflexivity.
Qed.

Example orphan_tx_breaks_count :
  let s := set_htxs empty_db [ex_t 7 0 1 5 1 0] [(7, 0, 5)] in
  let q := ex_q (ByAddress 5) false in
  NoDup (map hb_hash (hist s)) /\ NoDup (map htx_key (htxs s)) /\ NoDup (lookups s) /\
  (forall l, In l (lookups s) -> In (fst l) (map htx_key (htxs s))) /\
  query_count s q = 1%nat /\ query_all s q = [] /\ query_page s q 0 = Page 1 [].
Proof.
  vm_compute. split; [nodup_Z|]. split; [nodup_Z|]. split; [nodup_Z|]. split; [|repeat split; reflexivity].
  intros l [<-|[]]. left. reflexivity.
Qed.

(* [insert_htx] keeps hist_wf when the batch row of the hash exists (the
   writers insert the batch row first); [insert_hbatch] keeps it when the hash is new -- which the UNIQUE
   constraint alone does not ensure (see dup_hash_breaks_count). *)
Lemma hist_wf_empty : hist_wf empty_db.
Proof. constructor; cbn; try constructor; intros x []. Qed.

Lemma hist_wf_insert_hbatch s r s' :
  hist_wf s -> hist_has s (hb_hash r) = false -> insert_hbatch s r = Ok s' -> hist_wf s'.
Proof.
  intros [W1 W2 W3 W4 W5] Hnew Hins. apply insert_hbatch_ok in Hins as [_ ->].
  constructor; cbn [hist htxs lookups set_hist]; [|exact W2|exact W3|exact W4|]; rewrite map_app.
  - apply nodup_snoc; [exact W1|]. intros Hin. apply in_map_iff in Hin. destruct Hin as [b [Hb Hin]].
    unfold hist_has in Hnew. rewrite <- not_true_iff_false in Hnew. apply Hnew.
    apply existsb_exists. exists b. split; [exact Hin|]. apply Z.eqb_eq. exact Hb.
  - intros t Ht. apply in_or_app. left. exact (W5 t Ht).
Qed.

Lemma add_lookup_nodup l k : NoDup l -> NoDup (add_lookup l k).
Proof.
  intros Hnd. unfold add_lookup.
  match goal with |- context [existsb ?f l] => destruct (existsb f l) eqn:E end; [exact Hnd|]. apply nodup_snoc; [exact Hnd|].
  intros Hin. rewrite <- not_true_iff_false in E. apply E.
  apply existsb_exists. exists k. split; [exact Hin|]. rewrite !Z.eqb_refl. reflexivity.
Qed.
Lemma add_lookup_In l k x : In x (add_lookup l k) -> In x l \/ x = k.
Proof.
  unfold add_lookup. match goal with |- context [existsb ?f l] => destruct (existsb f l) end; [left; assumption|].
  intros Hin. apply in_app_or in Hin. destruct Hin as [Hin|[<-|[]]]; [left; exact Hin|right; reflexivity].
Qed.
Lemma fold_add_lookup hs i lk : forall L,
  NoDup L -> NoDup (fold_left (fun l a => add_lookup l (hs, i, a)) lk L) /\
  forall x, In x (fold_left (fun l a => add_lookup l (hs, i, a)) lk L) -> In x L \/ fst x = (hs, i).
Proof.
  induction lk as [|a lk IH]; intros L Hnd; cbn [fold_left]; [split; [exact Hnd|intros x Hx; left; exact Hx]|].
  destruct (IH (add_lookup L (hs, i, a)) (add_lookup_nodup L _ Hnd)) as [H1 H2]. split; [exact H1|].
  intros x Hx. destruct (H2 x Hx) as [Hin|Hk]; [|right; exact Hk].
  apply add_lookup_In in Hin. destruct Hin as [Hin| ->]; [left; exact Hin|right; reflexivity].
Qed.

Lemma insert_htx_keys s r lk s' :
  insert_htx s r lk = Ok s' ->
  NoDup (map htx_key (htxs s)) -> NoDup (lookups s) -> (forall l, In l (lookups s) -> In (fst l) (map htx_key (htxs s))) ->
  NoDup (map htx_key (htxs s')) /\ NoDup (lookups s') /\ forall l, In l (lookups s') -> In (fst l) (map htx_key (htxs s')).
Proof.
  intros H W2 W3 W4. apply insert_htx_ok in H as [Hnew ->]. cbn [htxs lookups set_htxs].
  destruct (fold_add_lookup (ht_hash r) (ht_index r) lk (lookups s) W3) as [L1 L2].
  split; [|split; [exact L1|]].
  - rewrite map_app. cbn [map]. apply nodup_snoc; [exact W2|].
    intros Hin. apply in_map_iff in Hin. destruct Hin as [t [Ht Hin]].
    unfold htx_has in Hnew. rewrite <- not_true_iff_false in Hnew. apply Hnew.
    apply existsb_exists. exists t. split; [exact Hin|]. unfold htx_key in Ht. injection Ht as -> ->. rewrite !Z.eqb_refl. reflexivity.
  - intros l Hl. rewrite map_app. apply in_or_app. destruct (L2 l Hl) as [Hin|Hk].
    + left. exact (W4 l Hin).
    + right. left. rewrite Hk. reflexivity.
Qed.

Lemma hist_wf_insert_htx s r lk s' :
  hist_wf s -> hist_has s (ht_hash r) = true -> insert_htx s r lk = Ok s' -> hist_wf s'.
Proof.
  intros [W1 W2 W3 W4 W5] Hb Hins. destruct (insert_htx_keys s r lk s' Hins W2 W3 W4) as (K2 & K3 & K4).
  apply insert_htx_ok in Hins as [_ ->].
  constructor; [exact W1|exact K2|exact K3|exact K4|]. cbn [hist htxs set_htxs].
  intros t Ht. apply in_app_or in Ht. destruct Ht as [Ht|[<-|[]]]; [exact (W5 t Ht)|].
  unfold hist_has in Hb. apply existsb_exists in Hb. destruct Hb as [b [Hin E]]. apply Z.eqb_eq in E.
  rewrite <- E. apply in_map. exact Hin.
Qed.

Lemma hist_wf_set_executed s hs code : hist_wf s -> hist_wf (set_executed s hs code).
Proof.
  intros [W1 W2 W3 W4 W5].
  assert (Hm : map hb_hash (hist (set_executed s hs code)) = map hb_hash (hist s)).
  { unfold set_executed. cbn [hist set_hist]. rewrite map_map. apply map_ext. intros b. destruct (hb_hash b =? hs); reflexivity. }
  constructor; [rewrite Hm; exact W1|exact W2|exact W3|exact W4|].
  intros t Ht. rewrite Hm. exact (W5 t Ht).
Qed.
Print Assumptions hist_wf_insert_htx.
Print Assumptions hist_wf_insert_hbatch.
