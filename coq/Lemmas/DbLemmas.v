(* Lemmas/DbLemmas.v — the storage layer (Model/Db.v) and the height ranges of Model/Avg.v: folds in
   the error monad; lists and insertion sort; what each storage operation returns; balances that
   are never negative; the write relation [lstep] / [lwrites] and what every sequence of writes
   keeps; [zrange] and [last_rated_below]. *)
From Model Require Import Db Avg.
From Coq Require Import Lia Relations RelationClasses Sorting.Sorted Permutation.
Open Scope Z_scope.

Lemma rbind_ok {A B} (r : res A) (f : A -> res B) b :
  rbind r f = Ok b -> exists a, r = Ok a /\ f a = Ok b.
Proof. destruct r; cbn; intros H; try discriminate. eauto. Qed.

Lemma fold_left_invariant {A B} (P : A -> Prop) (Q : B -> Prop) (f : A -> B -> A) (l : list B) :
  (forall a b, P a -> Q b -> P (f a b)) -> Forall Q l -> forall a, P a -> P (fold_left f l a).
Proof. intros Hf. induction 1 as [|b l Hb _ IH]; intros a Ha; cbn [fold_left]; [exact Ha|]. apply IH, Hf; assumption. Qed.

(* Every loop of the model is a fold whose step is strict in the error: once the accumulator
   is not [Ok] it stays so.  An invariant of the successful steps is an invariant of the fold. *)
Lemma fold_strict_fail {S X} (g : res S -> X -> res S) (l : list X) :
  (forall x r, (forall s, r <> Ok s) -> forall s, g r x <> Ok s) ->
  forall r, (forall s, r <> Ok s) -> forall s, fold_left g l r <> Ok s.
Proof. intros Hs. induction l as [|y l IH]; intros r Hr; cbn [fold_left]; [exact Hr|]. apply IH, Hs, Hr. Qed.

Lemma fold_strict_invariant {S X} (P : S -> Prop) (g : res S -> X -> res S) (l : list X) :
  (forall x r, (forall s, r <> Ok s) -> forall s, g r x <> Ok s) ->
  (forall s x s', In x l -> P s -> g (Ok s) x = Ok s' -> P s') ->
  forall s0 s', P s0 -> fold_left g l (Ok s0) = Ok s' -> P s'.
Proof.
  intros Hstrict. induction l as [|x l IH]; cbn [fold_left]; intros Hstep s0 s' H0 HF.
  - inversion HF; subst; exact H0.
  - destruct (g (Ok s0) x) as [s1|e|e] eqn:E.
    + eapply IH; [|eapply Hstep; [left; reflexivity|exact H0|exact E]|exact HF].
      intros; eapply Hstep; eauto. right; assumption.
    + exfalso. eapply (fold_strict_fail g l Hstrict (Fail e)); [discriminate|exact HF].
    + exfalso. eapply (fold_strict_fail g l Hstrict (Panic e)); [discriminate|exact HF].
Qed.

Lemma rbind_strict {S X} (f : S -> X -> res S) x r :
  (forall s, r <> Ok s) -> forall s, (let? s0 := r in f s0 x) <> Ok s.
Proof. intros Hr s. destruct r; [exfalso; eapply Hr; reflexivity|discriminate..]. Qed.

Lemma fold_res_invariant_in {S X} (P : S -> Prop) (f : S -> X -> res S) (l : list X) :
  (forall s x s', In x l -> P s -> f s x = Ok s' -> P s') ->
  forall s0 s', P s0 ->
  fold_left (fun r x => let? s := r in f s x) l (Ok s0) = Ok s' -> P s'.
Proof. apply (fold_strict_invariant P (fun r x => let? s := r in f s x)). intros x; apply rbind_strict. Qed.
Lemma fold_res_invariant {S X} (P : S -> Prop) (f : S -> X -> res S) (l : list X) :
  (forall s x s', P s -> f s x = Ok s' -> P s') ->
  forall s0 s', P s0 ->
  fold_left (fun r x => let? s := r in f s x) l (Ok s0) = Ok s' -> P s'.
Proof. intros Hstep. apply fold_res_invariant_in. intros s x s' _. apply Hstep. Qed.

Lemma fold_res_not_ok {S X} (f : S -> X -> res S) (l : list X) r :
  (forall s, r <> Ok s) -> fold_left (fun r x => let? s := r in f s x) l r = r.
Proof. intros Hr. induction l as [|x l IH]; cbn [fold_left]; [reflexivity|]. destruct r; [exfalso; eapply Hr; reflexivity|exact IH..]. Qed.

Lemma fold_res_cons {S X} (f : S -> X -> res S) x l s s' :
  fold_left (fun r x => let? s := r in f s x) (x :: l) (Ok s) = Ok s' ->
  exists s1, f s x = Ok s1 /\ fold_left (fun r x => let? s := r in f s x) l (Ok s1) = Ok s'.
Proof.
  cbn [fold_left rbind]. destruct (f s x) as [s1|e|e]; [eauto|rewrite fold_res_not_ok; discriminate..].
Qed.

Lemma fold_res_sum {S X} (q : S -> Z) (d : X -> Z) (f : S -> X -> res S) (l : list X) :
  (forall s x s', In x l -> f s x = Ok s' -> q s' = q s + d x) ->
  forall s s', fold_left (fun r x => let? s0 := r in f s0 x) l (Ok s) = Ok s' ->
  q s' = q s + fold_right (fun x acc => d x + acc) 0 l.
Proof.
  induction l as [|x l IH]; intros Hf s s' HF; [inversion HF; cbn; lia|].
  apply fold_res_cons in HF as (s1 & E & HF). cbn [fold_right].
  rewrite (IH (fun s0 y s2 Hy => Hf s0 y s2 (or_intror Hy)) s1 s' HF), (Hf s x s1 (or_introl eq_refl) E). lia.
Qed.

Lemma fold_right_if {X} (b : bool) (g : X -> Z) (l : list X) :
  fold_right (fun x acc => (if b then g x else 0) + acc) 0 l = if b then fold_right (fun x acc => g x + acc) 0 l else 0.
Proof. destruct b; [reflexivity|]. induction l as [|x l IH]; cbn [fold_right]; lia. Qed.

Lemma fold_sum_nonneg {X} (f : X -> Z) l : (forall x, In x l -> 0 <= f x) -> 0 <= fold_right (fun x a => f x + a) 0 l.
Proof.
  induction l as [|x l IH]; intros H; cbn [fold_right]; [lia|].
  pose proof (H x (or_introl eq_refl)). pose proof (IH (fun y Hy => H y (or_intror Hy))). lia.
Qed.

Section FoldSum.
Context {X : Type}.
Local Notation sum f l := (fold_right (fun x a => f x + a) 0 l).
Lemma fold_sum_app (f : X -> Z) l1 l2 : sum f (l1 ++ l2) = sum f l1 + sum f l2.
Proof. induction l1 as [|x l1 IH]; cbn [app fold_right]; lia. Qed.
Lemma fold_sum_filter (f : X -> Z) (k : X -> bool) l : sum f l = sum f (filter k l) + sum f (filter (fun x => negb (k x)) l).
Proof. induction l as [|x l IH]; [reflexivity|]. cbn [filter fold_right]. destruct (k x); cbn [negb fold_right]; lia. Qed.
Lemma fold_sum_ext_in (f g : X -> Z) l : (forall x, In x l -> f x = g x) -> sum f l = sum g l.
Proof.
  induction l as [|x l IH]; intros H; [reflexivity|]. cbn [fold_right].
  rewrite (H x (or_introl eq_refl)), IH; [reflexivity|]. intros y Hy. apply H. right; exact Hy.
Qed.
Lemma fold_sum_flat_map {Y} (f : X -> Z) (D : Y -> list X) l : sum f (flat_map D l) = sum (fun y => sum f (D y)) l.
Proof. induction l as [|y l IH]; [reflexivity|]. cbn [flat_map fold_right]. rewrite fold_sum_app, IH. reflexivity. Qed.
Lemma fold_sum_map {Y} (f : X -> Z) (g : Y -> X) l : sum f (map g l) = sum (fun y => f (g y)) l.
Proof. induction l as [|y l IH]; [reflexivity|]. cbn [map fold_right]. rewrite IH. reflexivity. Qed.
End FoldSum.

(* The credits a loop may make are bounded by a sum; its totality lemma consumes that budget item by
   item.  [R st n] is "state [st] is fine and every cell has room for [n] more". *)
Lemma fold_res_total {S X} (R : S -> Z -> Prop) (f : S -> X -> res S) (cr : X -> Z) l :
  (forall x, In x l -> 0 <= cr x) ->
  (forall st x m, In x l -> 0 <= m -> R st (cr x + m) -> exists st', f st x = Ok st' /\ R st' m) ->
  forall st n, 0 <= n -> R st (fold_right (fun x a => cr x + a) 0 l + n) ->
  exists st', fold_left (fun r x => let? s0 := r in f s0 x) l (Ok st) = Ok st' /\ R st' n.
Proof.
  induction l as [|x l IH]; intros Hc Hf st n Hn Hr; cbn [fold_left fold_right] in *.
  - rewrite Z.add_0_l in Hr. eauto.
  - rewrite <- Z.add_assoc in Hr. pose proof (fold_sum_nonneg cr l (fun y Hy => Hc y (or_intror Hy))) as Hl.
    destruct (Hf st x (fold_right (fun x a => cr x + a) 0 l + n) (or_introl eq_refl)) as (st1 & E & Hr1); [lia|exact Hr|]. cbn [rbind]. rewrite E.
    apply IH; [intros y Hy; apply Hc; right; exact Hy|intros st0 y m Hy; apply Hf; right; exact Hy|exact Hn|exact Hr1].
Qed.

Lemma nodup_snoc {A} (l : list A) x : NoDup l -> ~ In x l -> NoDup (l ++ [x]).
Proof.
  induction l as [|y l IH]; intros Hnd Hn; cbn [app]; [constructor; [intros []|constructor]|].
  inversion Hnd as [|? ? Hy Hnd']; subst. constructor.
  - intros Hin. apply in_app_or in Hin as [Hin|[->|[]]]; [contradiction|apply Hn; left; reflexivity].
  - apply IH; [exact Hnd'|intros Hin; apply Hn; right; exact Hin].
Qed.
Lemma nodup_app_l {A} (l k : list A) : NoDup (l ++ k) -> NoDup l.
Proof.
  induction l as [|y l IH]; intros Hnd; [constructor|]. cbn [app] in Hnd. inversion Hnd as [|? ? Hn Hnd']; subst.
  constructor; [intros Hin; apply Hn; apply in_or_app; left; exact Hin|apply IH; exact Hnd'].
Qed.
Lemma nodup_app_r {A} (l k : list A) : NoDup (l ++ k) -> NoDup k.
Proof. induction l as [|x l IH]; cbn [app]; intros H; [exact H|]. inversion H; subst. apply IH; assumption. Qed.
Lemma nodup_app_disjoint {A} (l k : list A) x : NoDup (l ++ k) -> In x l -> In x k -> False.
Proof.
  induction l as [|y l IH]; intros Hnd Hl Hk; [contradiction|]. cbn [app] in Hnd. inversion Hnd as [|? ? Hn Hnd']; subst.
  destruct Hl as [->|Hl]; [apply Hn; apply in_or_app; right; exact Hk|eapply IH; eauto].
Qed.

Lemma firstn_skipn_next {A} (l : list A) off n : firstn n (skipn off l) ++ skipn (off + n) l = skipn off l.
Proof. rewrite <- (firstn_skipn n (skipn off l)) at 2. f_equal. rewrite drop_drop. reflexivity. Qed.

Lemma existsb_eqb_In (a : Z) l : existsb (Z.eqb a) l = true <-> In a l.
Proof.
  rewrite existsb_exists. split.
  - intros (x & Hx & E). apply Z.eqb_eq in E. subst. exact Hx.
  - intros H. exists a. split; [exact H|apply Z.eqb_refl].
Qed.

Lemma strongly_sorted_lt_nodup (l : list Z) : StronglySorted Z.lt l -> List.NoDup l.
Proof.
  induction 1 as [|x l Hs IH Hf]; constructor; [|exact IH].
  intros Hin. rewrite Forall_forall in Hf. specialize (Hf _ Hin). lia.
Qed.

Lemma strongly_sorted_map_filter {A B} (R : B -> B -> Prop) (f : A -> B) p l :
  StronglySorted R (map f l) -> StronglySorted R (map f (filter p l)).
Proof.
  induction l as [|x l IH]; cbn [map filter]; intros H; [constructor|]. inversion H as [|? ? Hs Hf]; subst.
  destruct (p x); [|apply IH, Hs]. cbn [map]. constructor; [apply IH, Hs|].
  rewrite Forall_forall in *. intros y Hy. apply Hf. apply in_map_iff in Hy as (z & <- & Hz).
  apply in_map. apply filter_In in Hz. apply Hz.
Qed.

(* The model sorts holders (insert_holder) and stakes (insert_stake) by insertion; both functions are
   [ins] at their order, by conversion. *)
Section InsertionSort.
Context {A : Type} (lt : A -> A -> bool).

Fixpoint ins (x : A) (l : list A) : list A :=
  match l with [] => [x] | y :: l' => if lt x y then x :: l else y :: ins x l' end.
Definition le_of (x y : A) : Prop := lt x y = true \/ x = y.

Lemma ins_perm x l : Permutation (x :: l) (ins x l).
Proof.
  induction l as [|y l IH]; cbn [ins]; [reflexivity|].
  destruct (lt x y); [reflexivity|]. rewrite perm_swap. constructor. exact IH.
Qed.
Lemma isort_perm l : Permutation l (fold_right ins [] l).
Proof. induction l as [|x l IH]; cbn [fold_right]; [reflexivity|]. rewrite <- ins_perm. constructor. exact IH. Qed.
Lemma isort_in l x : In x (fold_right ins [] l) <-> In x l.
Proof. split; apply Permutation_in; [apply Permutation_sym|]; apply isort_perm. Qed.

Hypothesis lt_trans : forall x y z, lt x y = true -> lt y z = true -> lt x z = true.
Hypothesis lt_total : forall x y, lt x y = false -> le_of y x.

Lemma le_of_trans x y z : le_of x y -> le_of y z -> le_of x z.
Proof. intros [H1| ->] [H2| ->]; [left; eapply lt_trans; eassumption|left; assumption|left; assumption|right; reflexivity]. Qed.

Lemma ins_sorted x l : StronglySorted le_of l -> StronglySorted le_of (ins x l).
Proof.
  induction 1 as [|y l Hs IH Hf]; cbn [ins]; [repeat constructor|].
  destruct (lt x y) eqn:E.
  - constructor; [constructor; assumption|]. constructor; [left; exact E|].
    rewrite Forall_forall in *. intros z Hz. eapply le_of_trans; [left; exact E|apply Hf, Hz].
  - constructor; [exact IH|]. rewrite Forall_forall in *. intros z Hz.
    apply (Permutation_in _ (Permutation_sym (ins_perm x l))) in Hz as [<-|Hz]; [apply lt_total, E|apply Hf, Hz].
Qed.
Lemma isort_sorted l : StronglySorted le_of (fold_right ins [] l).
Proof. induction l as [|x l IH]; cbn [fold_right]; [constructor|]. apply ins_sorted, IH. Qed.

Hypothesis lt_irrefl : forall x, lt x x = false.

(* a sorted list is determined by its elements: two heads are each below the other *)
Lemma sorted_perm_unique a : forall b, StronglySorted le_of a -> StronglySorted le_of b -> Permutation a b -> a = b.
Proof.
  induction a as [|x a IH]; intros b Sa Sb P; [apply Permutation_nil in P; subst; reflexivity|].
  destruct b as [|y b]; [apply Permutation_sym, Permutation_nil in P; discriminate|].
  inversion Sa as [|? ? Sa' Ha]; inversion Sb as [|? ? Sb' Hb]; subst. rewrite Forall_forall in Ha, Hb.
  assert (x = y).
  { assert (Ix : In x (y :: b)) by (eapply Permutation_in; [exact P|left; reflexivity]).
    assert (Iy : In y (x :: a)) by (eapply Permutation_in; [apply Permutation_sym; exact P|left; reflexivity]).
    destruct Ix as [->|Ix]; [reflexivity|]. destruct Iy as [->|Iy]; [reflexivity|].
    destruct (Ha y Iy) as [L1|E]; [|exact E]. destruct (Hb x Ix) as [L2|E]; [|symmetry; exact E].
    pose proof (lt_trans _ _ _ L1 L2) as L. rewrite lt_irrefl in L. discriminate L. }
  subst y. f_equal. apply IH; [assumption..|]. eapply Permutation_cons_inv; exact P.
Qed.
Lemma isort_perm_eq a b : Permutation a b -> fold_right ins [] a = fold_right ins [] b.
Proof.
  intros P. apply sorted_perm_unique; [apply isort_sorted..|].
  rewrite <- !isort_perm. exact P.
Qed.
End InsertionSort.

Lemma wrap64_nonneg x : 0 <= wrap64 x.
Proof. unfold wrap64, two64. apply Z.mod_pos_bound. lia. Qed.
Lemma wrap64_lt x : wrap64 x < two64.
Proof. unfold wrap64, two64. apply Z.mod_pos_bound. lia. Qed.

Lemma get_bal_insert m a t v a' t' :
  get_bal (<[(a, t) := v]> m) a' t' = if decide ((a, t) = (a', t')) then v else get_bal m a' t'.
Proof.
  unfold get_bal. destruct (decide ((a, t) = (a', t'))) as [->|N].
  - rewrite lookup_insert. reflexivity.
  - rewrite lookup_insert_ne by exact N. reflexivity.
Qed.

Lemma get_bal_insert_eqb m a t v a' t' :
  get_bal (<[(a, t) := v]> m) a' t' = if (a =? a') && (t =? t') then v else get_bal m a' t'.
Proof.
  rewrite get_bal_insert. destruct (decide _) as [E|N].
  - inversion E; subst. rewrite !Z.eqb_refl. reflexivity.
  - destruct (Z.eqb_spec a a'), (Z.eqb_spec t t'); cbn [andb]; try reflexivity. subst. contradiction.
Qed.

Lemma add_to_balance_iff s a t v s' :
  add_to_balance s a t v = Ok s' <->
  valid_ticker t = true /\ v < two63 /\ get_bal (bal s) a t + v <= max_int64 /\
  s' = set_bal s (<[(a, t) := get_bal (bal s) a t + v]> (bal s)).
Proof.
  unfold add_to_balance. destruct (valid_ticker t); cbn [negb]; [|split; [discriminate|intros (? & _); discriminate]].
  destruct (Z.leb_spec two63 v); [split; [discriminate|lia]|].
  destruct (Z.ltb_spec max_int64 (get_bal (bal s) a t + v)); [split; [discriminate|lia]|].
  split; [intros E; inversion E; auto|intros (_ & _ & _ & ->); reflexivity].
Qed.
Lemma add_to_balance_ok s a t v s' :
  add_to_balance s a t v = Ok s' ->
  valid_ticker t = true /\ v < two63 /\ s' = set_bal s (<[(a, t) := get_bal (bal s) a t + v]> (bal s)).
Proof. intros H. apply add_to_balance_iff in H as (Ht & Hv & _ & E). auto. Qed.
Lemma get_bal_add s a t v s' a' t' :
  add_to_balance s a t v = Ok s' ->
  get_bal (bal s') a' t' = get_bal (bal s) a' t' + (if (a =? a') && (t =? t') then v else 0).
Proof.
  intros H. apply add_to_balance_ok in H as (_ & _ & ->). cbn [bal set_bal]. rewrite get_bal_insert_eqb.
  destruct (Z.eqb_spec a a'), (Z.eqb_spec t t'); cbn [andb]; subst; lia.
Qed.

(* a zero-amount debit is the upsert "col = col + 0" *)
Lemma sub_from_balance_iff s a t v s' :
  sub_from_balance s a t v = SubOk s' <->
  valid_ticker t = true /\ v < two63 /\ (v <> 0 -> v <= get_bal (bal s) a t) /\
  (v = 0 -> get_bal (bal s) a t <= max_int64) /\
  s' = set_bal s (<[(a, t) := get_bal (bal s) a t - v]> (bal s)).
Proof.
  unfold sub_from_balance. destruct (Z.eqb_spec v 0) as [->|Hv].
  - transitivity (add_to_balance s a t 0 = Ok s').
    { destruct (add_to_balance s a t 0); split; intros E; inversion E; reflexivity. }
    rewrite add_to_balance_iff, Z.add_0_r, Z.sub_0_r. unfold two63. intuition lia.
  - destruct (valid_ticker t); cbn [negb]; [|split; [discriminate|intros (? & _); discriminate]].
    destruct (Z.ltb_spec (get_bal (bal s) a t) v); [split; [discriminate|intros (_ & _ & Hle & _); specialize (Hle Hv); lia]|].
    destruct (Z.leb_spec two63 v); [split; [discriminate|lia]|].
    split; [intros E; inversion E; repeat split; auto; lia|intros (_ & _ & _ & _ & ->); reflexivity].
Qed.
Lemma sub_from_balance_ok s a t v s' :
  sub_from_balance s a t v = SubOk s' ->
  valid_ticker t = true /\ (v = 0 \/ 0 < v <= get_bal (bal s) a t \/ v < 0) /\ v < two63 /\
  s' = set_bal s (<[(a, t) := get_bal (bal s) a t - v]> (bal s)).
Proof. intros H. apply sub_from_balance_iff in H as (Ht & Hv & Hne & _ & E). repeat split; auto. lia. Qed.
Lemma get_bal_sub s a t v s' a' t' :
  sub_from_balance s a t v = SubOk s' ->
  get_bal (bal s') a' t' = get_bal (bal s) a' t' - (if (a =? a') && (t =? t') then v else 0).
Proof.
  intros H. apply sub_from_balance_ok in H as (_ & _ & _ & ->). cbn [bal set_bal]. rewrite get_bal_insert_eqb.
  destruct (Z.eqb_spec a a'), (Z.eqb_spec t t'); cbn [andb]; subst; lia.
Qed.

Lemma insert_hbatch_ok s r s' :
  insert_hbatch s r = Ok s' -> hist_has_at s (hb_hash r) (hb_height r) = false /\ s' = set_hist s (hist s ++ [r]).
Proof. unfold insert_hbatch. destruct (hist_has_at _ _ _); [discriminate|]. intros H; inversion H; auto. Qed.
Lemma insert_htx_ok s r lk s' :
  insert_htx s r lk = Ok s' ->
  htx_has s (ht_hash r) (ht_index r) = false /\
  s' = set_htxs s (htxs s ++ [r]) (fold_left (fun l a => add_lookup l (ht_hash r, ht_index r, a)) lk (lookups s)).
Proof. unfold insert_htx. destruct (htx_has _ _ _); [discriminate|]. intros H; inversion H; auto. Qed.
Lemma insert_holding_ok s e h s' :
  insert_holding s e h = Ok s' ->
  holding_has s (e_hash e) = false /\ s' = set_holding s (holding s ++ [{| h_entry := e; h_height := h |}]).
Proof. unfold insert_holding. destruct (holding_has _ _); [discriminate|]. intros H; inversion H; auto. Qed.
Lemma insert_bank_ok s h a s' :
  insert_bank s h a = Ok s' -> bank s !! h = None /\ s' = set_bank s (<[h := (a, -1, -1)]> (bank s)).
Proof. unfold insert_bank. destruct (bank s !! h); [discriminate|]. intros H; inversion H; auto. Qed.
Lemma update_bank_ok s h u r s' :
  update_bank s h u r = Ok s' -> exists a u0 r0, bank s !! h = Some (a, u0, r0) /\ s' = set_bank s (<[h := (a, u, r)]> (bank s)).
Proof. unfold update_bank. destruct (bank s !! h) as [[[a u0] r0]|]; [|discriminate]. intros H; inversion H; eauto. Qed.
Lemma insert_relation_shape s a hs i t cv :
  insert_relation s a hs i t cv = s \/
  insert_relation s a hs i t cv = set_rel s (<[hs := default [] (rel s !! hs) ++ [(a, i, t || cv, cv)]]> (rel s)).
Proof. unfold insert_relation. destruct (existsb _ _); auto. Qed.
Lemma insert_relation_set_rel s a hs i t cv :
  insert_relation s a hs i t cv = set_rel s (rel (insert_relation s a hs i t cv)).
Proof. unfold insert_relation. destruct (existsb _ _); destruct s; reflexivity. Qed.
(* whether the row is added or one for that address is already there, the hash has relation rows:
   the row written by recordBatch makes the entry hash a replay from then on *)
Lemma insert_relation_replay s a hs i t cv : is_replay (insert_relation s a hs i t cv) hs = true.
Proof.
  unfold insert_relation, is_replay. cbv zeta. destruct (existsb _ _) eqn:Eex.
  - destruct (rel s !! hs) as [[|x l]|]; [discriminate Eex|reflexivity|discriminate Eex].
  - cbn [rel set_rel]. rewrite lookup_insert. destruct (default [] _); reflexivity.
Qed.

Lemma hist_has_insert_hbatch s r s' : insert_hbatch s r = Ok s' -> hist_has s' (hb_hash r) = true.
Proof.
  intros H. apply insert_hbatch_ok in H as [_ ->]. unfold hist_has. cbn. rewrite existsb_app. cbn.
  rewrite Z.eqb_refl. apply orb_true_r.
Qed.
Lemma hist_insert_htx s r lk s' : insert_htx s r lk = Ok s' -> hist s' = hist s.
Proof. intros H. apply insert_htx_ok in H as [_ ->]. reflexivity. Qed.

Lemma bal_set_executed s hs code : bal (set_executed s hs code) = bal s.  Proof. reflexivity. Qed.
Lemma bal_insert_relation s a hs i t cv : bal (insert_relation s a hs i t cv) = bal s.
Proof. unfold insert_relation. destruct (existsb _ _); reflexivity. Qed.
Lemma bal_set_to_amount s hs i amt : bal (set_to_amount s hs i amt) = bal s.  Proof. reflexivity. Qed.

(* a step that does not touch the projection at hand: names the state it produces *)
Ltac untouched_db :=
  intros;
  try match goal with H : add_to_balance _ _ _ _ = Ok _ |- _ => apply add_to_balance_ok in H as (_ & _ & ->) end;
  try match goal with H : sub_from_balance _ _ _ _ = SubOk _ |- _ => apply sub_from_balance_ok in H as (_ & _ & _ & ->) end;
  try match goal with H : insert_hbatch _ _ = Ok _ |- _ => apply insert_hbatch_ok in H as (_ & ->) end;
  try match goal with H : insert_htx _ _ _ = Ok _ |- _ => apply insert_htx_ok in H as (_ & ->) end;
  try match goal with H : insert_holding _ _ _ = Ok _ |- _ => apply insert_holding_ok in H as (_ & ->) end;
  try match goal with H : insert_bank _ _ _ = Ok _ |- _ => apply insert_bank_ok in H as (_ & ->) end;
  try match goal with H : update_bank _ _ _ _ = Ok _ |- _ => apply update_bank_ok in H as (? & ? & ? & _ & ->) end;
  try match goal with |- context [insert_relation ?s ?a ?hs ?i ?t ?cv] =>
        destruct (insert_relation_shape s a hs i t cv) as [-> | ->] end;
  try reflexivity.

Definition nonneg_map (m : gmap (addr * ticker) Z) : Prop := forall a t, 0 <= get_bal m a t.
Definition nonneg (s : db) : Prop := nonneg_map (bal s).

Lemma nonneg_insert m a t v : nonneg_map m -> 0 <= v -> nonneg_map (<[(a, t) := v]> m).
Proof. intros H Hv a' t'. rewrite get_bal_insert. destruct (decide _); auto. Qed.

Lemma nonneg_empty : nonneg_map ∅.
Proof. intros a t. unfold get_bal. rewrite lookup_empty. cbn. lia. Qed.

Lemma add_to_balance_nonneg s a t v s' :
  nonneg s -> 0 <= v -> add_to_balance s a t v = Ok s' -> nonneg s'.
Proof.
  intros Hn Hv H. apply add_to_balance_ok in H as (_ & _ & ->). unfold nonneg; cbn.
  apply nonneg_insert; [exact Hn|]. specialize (Hn a t). lia.
Qed.

(* whatever the sign of the amount: a debit is covered, a negative "debit" raises the cell *)
Lemma sub_from_balance_nonneg s a t v s' :
  nonneg s -> sub_from_balance s a t v = SubOk s' -> nonneg s'.
Proof.
  intros Hn H. apply sub_from_balance_ok in H as (_ & Hr & _ & ->). unfold nonneg; cbn.
  apply nonneg_insert; [exact Hn|]. specialize (Hn a t). lia.
Qed.

(* Everything Model/Ledger.v and the payout / adjustment functions of Model/Block.v do to the
   database is a sequence of these steps (LedgerLemmas.v, BlockLemmas.v: the [_writes] lemmas);
   only pn_grade, pn_rate and the sync mark are written elsewhere ([bstep] in BlockLemmas.v).
   What the model guarantees at every call site is recorded in the step, once: a credit is never
   negative; a debit is never negative either, as long as [K] holds (the amounts NullifyBurnAddress
   and the minted-token burn debit are balances of the committed database: [K] is then "that
   database has no negative cell"); a transaction row or a held batch is inserted only after a
   batch row for its hash.  So "no balance is ever negative", "every cell fits int64" and "every
   row has its batch row" are properties of the steps like any frame property.
   Two flags say what a sequence may contain: [rw], rows inserted into the history and holding
   tables; [ex], marks of execution (relation rows, batch status, recorded amounts).  Executing
   batches never does the first, the payouts and adjustments never do the second. *)
Inductive lstep (K : Prop) : bool -> bool -> db -> db -> Prop :=
| l_add rw ex s a t v s' : 0 <= v -> add_to_balance s a t v = Ok s' -> lstep K rw ex s s'
| l_sub rw ex s a t v s' : (K -> 0 <= v) -> sub_from_balance s a t v = SubOk s' -> lstep K rw ex s s'
| l_bank rw ex s h a s' : insert_bank s h a = Ok s' -> lstep K rw ex s s'
| l_ubank rw ex s h u r s' : update_bank s h u r = Ok s' -> lstep K rw ex s s'
| l_snaps rw ex s cu pa : lstep K rw ex s (set_snaps s cu pa)
| l_rel rw s a hs i t cv : lstep K rw true s (insert_relation s a hs i t cv)
| l_exec rw s hs code : lstep K rw true s (set_executed s hs code)
| l_amt rw s hs i amt : lstep K rw true s (set_to_amount s hs i amt)
| l_peg rw s hs i amt o : lstep K rw true s (set_peg_request_amounts s hs i amt o)
| l_hb ex s r s' : insert_hbatch s r = Ok s' -> lstep K true ex s s'
| l_htx ex s r lk s' : hist_has s (ht_hash r) = true -> insert_htx s r lk = Ok s' -> lstep K true ex s s'
| l_hold ex s e h s' : hist_has s (e_hash e) = true -> insert_holding s e h = Ok s' -> lstep K true ex s s'.
Definition lwrites (K : Prop) (rw ex : bool) : db -> db -> Prop := clos_refl_trans db (lstep K rw ex).
Global Instance lwrites_po K rw ex : PreOrder (lwrites K rw ex).
Proof. split; [intros s; apply rt_refl|intros a b d; apply rt_trans]. Qed.
Lemma lwrites_step K rw ex s s' : lstep K rw ex s s' -> lwrites K rw ex s s'.
Proof. apply rt_step. Qed.

(* a projection that moves along a preorder under every step moves along it under any
   sequence of steps: with R := eq a frame property, with an inclusion order monotonicity *)
Lemma lwrites_pres {A} (π : db -> A) (R : A -> A -> Prop) `{!PreOrder R} K rw ex :
  (forall s s', lstep K rw ex s s' -> R (π s) (π s')) -> forall s s', lwrites K rw ex s s' -> R (π s) (π s').
Proof. intros Hs s s' H. induction H; [auto|reflexivity|etransitivity; eassumption]. Qed.
Lemma lwrites_invariant (P : db -> Prop) K rw ex :
  (forall s s', lstep K rw ex s s' -> P s -> P s') -> forall s s', lwrites K rw ex s s' -> P s -> P s'.
Proof. intros Hs s s' H. induction H; eauto. Qed.

Global Instance same_on_po {A B} (f : A -> B) : PreOrder (fun x y => f x = f y).
Proof. split; [intros x; reflexivity|intros x y z H1 H2; exact (eq_trans H1 H2)]. Qed.
Global Instance preserved_po {A} (P : A -> Prop) : PreOrder (fun x y => P x -> P y).
Proof. split; [intros x H; exact H|intros x y z H1 H2 H; auto]. Qed.

(* the constructor is named in every case: left to search, unification would compare storage
   operations by unfolding them *)
Lemma lwrites_le K rw ex rw' ex' s s' :
  implb rw rw' = true -> implb ex ex' = true -> lwrites K rw ex s s' -> lwrites K rw' ex' s s'.
Proof.
  intros Hr He. apply (lwrites_pres (fun s => s) (lwrites K rw' ex')). clear s s'. intros s s' H. apply lwrites_step.
  destruct H; try (destruct rw'; [|discriminate Hr]); try (destruct ex'; [|discriminate He]);
    [eapply l_add|eapply l_sub|eapply l_bank|eapply l_ubank|apply l_snaps|apply l_rel|apply l_exec|apply l_amt|apply l_peg
    |eapply l_hb|eapply l_htx|eapply l_hold]; eassumption.
Qed.

Lemma lwrites_fold {X} K rw ex (f : db -> X -> res db) (l : list X) :
  (forall s x s', In x l -> f s x = Ok s' -> lwrites K rw ex s s') ->
  forall s s', fold_left (fun r x => let? s0 := r in f s0 x) l (Ok s) = Ok s' -> lwrites K rw ex s s'.
Proof.
  intros Hf s s' H. refine (fold_res_invariant_in (lwrites K rw ex s) f l _ s s' _ H); [|reflexivity].
  intros s0 x s1 Hin Hp Hs. etransitivity; [exact Hp|eapply Hf; eassumption].
Qed.

Lemma lstep_bal K rw ex s s' :
  lstep K rw ex s s' ->
  bal s' = bal s \/
  (exists a t v, 0 <= v /\ add_to_balance s a t v = Ok s') \/
  (exists a t v, (K -> 0 <= v) /\ sub_from_balance s a t v = SubOk s').
Proof. intros []; eauto 7; left; untouched_db. Qed.

Lemma lwrites_nonneg K rw ex s s' : lwrites K rw ex s s' -> nonneg s -> nonneg s'.
Proof.
  apply lwrites_invariant. clear. intros s s' H Hn. unfold nonneg.
  destruct (lstep_bal _ _ _ _ _ H) as [->|[(a & t & v & Hv & Ha)|(a & t & v & _ & Hs)]]; [exact Hn|..].
  - eapply add_to_balance_nonneg; eassumption.
  - eapply sub_from_balance_nonneg; eassumption.
Qed.

(* pn_grade, pn_winners, pn_rate and pn_sync_version are written by SyncBlock and the loop body themselves *)
Definition block_tables (s : db) := (grades s, winners s, rates s, versions s).
Lemma lwrites_block_tables K rw ex s s' : lwrites K rw ex s s' -> block_tables s' = block_tables s.
Proof. intros H. symmetry. revert s s' H. apply (lwrites_pres block_tables eq). intros s s' []; untouched_db. Qed.
Lemma lwrites_rates K rw ex s s' : lwrites K rw ex s s' -> rates s = rates s'.
Proof. intros H. exact (eq_sym (f_equal (fun t => snd (fst t)) (lwrites_block_tables _ _ _ _ _ H))). Qed.

Lemma lwrites_holding K ex s s' : lwrites K false ex s s' -> holding s' = holding s.
Proof.
  intros H. symmetry. revert s s' H. apply (lwrites_pres holding eq). intros s s' H. inversion H; subst; untouched_db.
Qed.

(* a row of pn_bank, once there, stays: the ledger only inserts and updates bank rows *)
Lemma lstep_bank K rw ex s s' : lstep K rw ex s s' -> bank s' = bank s \/ exists h v, bank s' = <[h := v]> (bank s).
Proof. intros []; untouched_db; eauto. Qed.
Lemma lwrites_bank_row K rw ex k s s' : lwrites K rw ex s s' -> bank s !! k <> None -> bank s' !! k <> None.
Proof.
  apply (lwrites_invariant (fun x => bank x !! k <> None)). clear s s'. intros s s' H Hb.
  destruct (lstep_bank _ _ _ _ _ H) as [->|(h & v & ->)]; [exact Hb|].
  destruct (Z.eq_dec k h) as [->|N]; [rewrite lookup_insert; discriminate|rewrite lookup_insert_ne by auto; exact Hb].
Qed.

Lemma in_zrange_iff k : forall n lo, In k (zrange lo n) <-> lo <= k < lo + Z.of_nat n.
Proof.
  induction n as [|n IH]; intros lo; cbn [zrange]; [split; [contradiction|lia]|].
  split.
  - intros [<-|H]; [lia|]. apply IH in H. lia.
  - intros H. destruct (Z.eq_dec lo k) as [->|N]; [left; reflexivity|right; apply IH; lia].
Qed.

Lemma zrange_app n1 : forall lo n2, zrange lo (n1 + n2) = zrange lo n1 ++ zrange (lo + Z.of_nat n1) n2.
Proof.
  induction n1 as [|n1 IH]; intros lo n2; cbn [zrange Nat.add app]; [f_equal; lia|].
  rewrite IH. replace (lo + Z.of_nat (S n1)) with (lo + 1 + Z.of_nat n1) by lia. reflexivity.
Qed.

Lemma zrange_split lo n g : lo <= g < lo + Z.of_nat n ->
  zrange lo n = zrange lo (Z.to_nat (g - lo)) ++ g :: zrange (g + 1) (Z.to_nat (lo + Z.of_nat n - g - 1)).
Proof.
  intros H. replace n with (Z.to_nat (g - lo) + S (Z.to_nat (lo + Z.of_nat n - g - 1)))%nat at 1 by lia.
  rewrite zrange_app. cbn [zrange]. replace (lo + Z.of_nat (Z.to_nat (g - lo))) with g by lia. reflexivity.
Qed.

Lemma zrange_sorted n : forall lo, StronglySorted Z.lt (zrange lo n).
Proof.
  induction n as [|n IH]; intros lo; cbn [zrange]; [constructor|].
  constructor; [apply IH|]. apply Forall_forall. intros k Hk. apply in_zrange_iff in Hk. lia.
Qed.

Lemma zrange_NoDup n lo : List.NoDup (zrange lo n).
Proof. apply strongly_sorted_lt_nodup, zrange_sorted. Qed.

Lemma zrange_length n : forall lo, length (zrange lo n) = n.
Proof. induction n as [|n IH]; intros lo; cbn [zrange length]; [reflexivity|]. rewrite IH. reflexivity. Qed.

Lemma zrange_nth n : forall lo i d, (i < n)%nat -> nth i (zrange lo n) d = lo + Z.of_nat i.
Proof.
  induction n as [|n IH]; intros lo i d Hi; [lia|]. cbn [zrange].
  destruct i as [|i]; cbn [nth]; [lia|]. rewrite IH by lia. lia.
Qed.

(* last_rated_below is the largest rated height in (0, h), or 0 (the Go default) when there is
   none; rated heights <= 0 are never returned as such: the fold starts from 0 and only moves up *)
Lemma last_rated_below_char s h :
  (forall k m, rates s !! k = Some m -> k < h -> k <= last_rated_below s h) /\
  (last_rated_below s h = 0 \/ 0 < last_rated_below s h < h /\ exists m, rates s !! last_rated_below s h = Some m).
Proof.
  unfold last_rated_below.
  apply (map_fold_ind (fun r (mm : gmap Z (gmap ticker Z)) =>
    (forall k m, mm !! k = Some m -> k < h -> k <= r) /\ (r = 0 \/ 0 < r < h /\ exists m, mm !! r = Some m))).
  - split; [|left; reflexivity]. intros k m Hm. rewrite lookup_empty in Hm. discriminate.
  - intros i x mm r Hnone (M & D). destruct ((i <? h) && (r <? i)) eqn:E.
    + split; [|right; split; [lia|exists x; apply lookup_insert]].
      intros k m Hm Hk. destruct (Z.eq_dec i k) as [->|N]; [lia|].
      rewrite lookup_insert_ne in Hm by exact N. specialize (M k m Hm Hk). lia.
    + split.
      * intros k m Hm Hk. destruct (Z.eq_dec i k) as [->|N]; [destruct D; lia|].
        rewrite lookup_insert_ne in Hm by exact N. exact (M k m Hm Hk).
      * destruct D as [D|(B & m & Hm)]; [left; exact D|right; split; [exact B|]].
        exists m. rewrite lookup_insert_ne; [exact Hm|]. intros ->. rewrite Hnone in Hm. discriminate.
Qed.

Lemma last_rated_below_ge s h k m : rates s !! k = Some m -> k < h -> k <= last_rated_below s h.
Proof. apply last_rated_below_char. Qed.
Lemma last_rated_below_bounds s h : 0 <= last_rated_below s h /\ (0 < h -> last_rated_below s h < h).
Proof. destruct (last_rated_below_char s h) as (_ & [->|(B & _)]); lia. Qed.

Lemma last_rated_below_agree_rated s s' h :
  (forall k, k < h -> (exists m, rates s !! k = Some m) <-> (exists m, rates s' !! k = Some m)) ->
  last_rated_below s h = last_rated_below s' h.
Proof.
  intros T.
  destruct (last_rated_below_char s h) as (M & D), (last_rated_below_char s' h) as (M' & D').
  assert (L : last_rated_below s h <= last_rated_below s' h).
  { destruct D as [->|(B & R)]; [destruct D'; lia|]. apply T in R as (m & R); [|lia]. apply (M' _ m R). lia. }
  assert (L' : last_rated_below s' h <= last_rated_below s h).
  { destruct D' as [->|(B & R)]; [destruct D; lia|]. apply T in R as (m & R); [|lia]. apply (M _ m R). lia. }
  lia.
Qed.
