(* Lemmas/RoundTripLemmas.v — C20 (b): the parser round trip  parse_json (print v) = Some v,
   for exactly the values v for which it holds ([gp_jv]; every value the parser returns is one,
   so json.Compact is idempotent), for the simpler class [pr_jv] that the encoder stays in, and
   what the tree-level round trip (Lemmas/RoundTripLemmas2.v) needs about numbers and strings. *)
From Coq Require Import ZArith List Bool Lia.
From Model Require Import Codec.
From Lemmas Require Import JsonLemmas RoundTripScan.
Import ListNotations.
Open Scope list_scope.
Open Scope Z_scope.

Lemma dec_value_snoc l d : dec_value (l ++ [d]) = dec_value l * 10 + (d - 48).
Proof. unfold dec_value. rewrite fold_left_app. reflexivity. Qed.

Lemma all_digits_snoc l d : all_digits (l ++ [d]) = all_digits l && is_digit d.
Proof. unfold all_digits. rewrite forallb_app. cbn [forallb]. rewrite andb_true_r. reflexivity. Qed.

Lemma digits_rev_spec : forall f n, 0 <= n < 10 ^ Z.of_nat f ->
  all_digits (rev (digits_rev f n)) = true /\ dec_value (rev (digits_rev f n)) = n /\
  (1 <= n -> exists d rest, rev (digits_rev f n) = d :: rest /\ 49 <= d <= 57).
Proof.
  induction f as [|f IH]; intros n Hn.
  - change (10 ^ Z.of_nat 0) with 1 in Hn. assert (n = 0) by lia. subst n.
    split; [reflexivity|split; [reflexivity|lia]].
  - cbn [digits_rev]. destruct (Z.ltb_spec n 10) as [L|L].
    + cbn [rev app]. split; [|split].
      * unfold all_digits. cbn [forallb]. rewrite (proj2 (is_digit_iff _)) by lia. reflexivity.
      * unfold dec_value. cbn [fold_left]. lia.
      * intros P. exists (48 + n), []. split; [reflexivity|lia].
    + assert (Hp : 10 ^ Z.of_nat (S f) = 10 * 10 ^ Z.of_nat f).
      { rewrite Nat2Z.inj_succ, Z.pow_succ_r by lia. reflexivity. }
      assert (Hq : 1 <= n / 10 < 10 ^ Z.of_nat f).
      { split; [apply Z.div_le_lower_bound; lia|apply Z.div_lt_upper_bound; lia]. }
      destruct (IH (n / 10) ltac:(lia)) as (D & V & H).
      cbn [rev]. rewrite all_digits_snoc, dec_value_snoc, D, V.
      pose proof (Z.mod_pos_bound n 10 ltac:(lia)) as Hm.
      split; [rewrite (proj2 (is_digit_iff _)) by lia; reflexivity|]. split.
      * pose proof (Z.div_mod n 10 ltac:(lia)). lia.
      * intros _. destruct (H (proj1 Hq)) as (d & rest & E & R).
        exists d, (rest ++ [48 + n mod 10]). rewrite E. split; [reflexivity|exact R].
Qed.

Definition u64 (n : Z) : bool := (0 <=? n) && (n <=? max_uint64).
Lemma u64_iff n : u64 n = true <-> 0 <= n <= max_uint64.
Proof. unfold u64. rewrite andb_true_iff, !Z.leb_le. reflexivity. Qed.

Lemma u64_pow n : u64 n = true -> 0 <= n < 10 ^ Z.of_nat 20.
Proof.
  intros H. apply u64_iff in H. unfold max_uint64 in H.
  assert (E : 10 ^ Z.of_nat 20 = 100000000000000000000) by reflexivity. rewrite E. lia.
Qed.

Theorem dec_of_digits n : u64 n = true -> all_digits (dec_of n) = true.
Proof. intros H. unfold dec_of. apply digits_rev_spec. apply u64_pow. exact H. Qed.

Theorem dec_value_dec_of n : u64 n = true -> dec_value (dec_of n) = n.
Proof. intros H. unfold dec_of. apply digits_rev_spec. apply u64_pow. exact H. Qed.

Theorem dec_of_canon n : u64 n = true -> canon_number (dec_of n) = true.
Proof.
  intros H. unfold canon_number. rewrite (dec_of_digits n H). cbn [andb].
  pose proof (u64_pow n H) as R.
  destruct (Z.eq_dec n 0) as [->|N]; [reflexivity|].
  destruct (digits_rev_spec 20 n R) as (_ & _ & Hd). destruct (Hd ltac:(lia)) as (d & rest & E & Rd).
  unfold dec_of. rewrite E. destruct rest; [reflexivity|]. lia.
Qed.

Theorem decode_u64_dec_of n : u64 n = true -> decode_u64 (JNum (dec_of n)) = Some n.
Proof.
  intros H. cbn [decode_u64]. rewrite (dec_of_digits n H), (dec_value_dec_of n H).
  apply u64_iff in H. destruct (Z.leb_spec n max_uint64); [reflexivity|lia].
Qed.

(* a byte that the string scanner copies verbatim and that unquote leaves alone:
   printable ASCII except the quote and the backslash *)
Definition str_char (c : Z) : bool := (32 <=? c) && (c <? 128) && negb (c =? 34) && negb (c =? 92).
Definition clean_str (s : bytes) : bool := forallb str_char s.

Lemma str_char_inv c : str_char c = true -> 32 <= c < 128 /\ c <> 34 /\ c <> 92.
Proof.
  unfold str_char. intros H. apply andb_true_iff in H as [H H92]. apply andb_true_iff in H as [H H34].
  apply andb_true_iff in H as [H1 H2]. apply Z.leb_le in H1. apply Z.ltb_lt in H2.
  apply negb_true_iff, Z.eqb_neq in H34, H92. auto.
Qed.

Lemma clean_str_body s : clean_str s = true -> str_body s.
Proof.
  induction s as [|c s IH]; intros C; [constructor|]. apply andb_true_iff in C as [Cc Cs].
  apply str_char_inv in Cc as (R & N34 & N92).
  constructor; [apply Z.eqb_neq, N34|apply Z.eqb_neq, N92|apply Z.ltb_ge; lia|exact (IH Cs)].
Qed.

Lemma unquote_clean s : clean_str s = true -> unquote s = s.
Proof.
  intros C. apply unquote_plain. revert C. apply forallb_Forall.
  intros c H. apply str_char_inv in H. lia.
Qed.

(* [raw] is exactly one JSON string body / exactly one JSON number literal *)
Definition str_lit (raw : bytes) : bool :=
  match scan_string (raw ++ [34]) with Some (_, []) => true | _ => false end.
Definition num_lit (raw : bytes) : bool :=
  match scan_number raw with Some (_, []) => true | _ => false end.

Lemma str_lit_body raw : str_lit raw = true <-> str_body raw.
Proof.
  unfold str_lit. split; [|intros B; rewrite (scan_string_body raw B []); reflexivity].
  destruct (scan_string (raw ++ [34])) as [[b [|x r]]|] eqn:S; try discriminate. intros _.
  destruct (scan_string_inv _ _ _ S) as [B E]. apply app_inj_tail in E as [-> _]. exact B.
Qed.

Lemma scan_string_lit raw : str_lit raw = true -> forall rest,
  scan_string (raw ++ 34 :: rest) = Some (raw, rest).
Proof. intros H. apply scan_string_body, str_lit_body, H. Qed.

Lemma num_lit_shape raw : num_lit raw = true <-> num_shape raw.
Proof.
  unfold num_lit. split.
  - destruct (scan_number raw) as [[n [|x r]]|] eqn:S; try discriminate. intros _.
    destruct (scan_number_inv _ _ _ S) as [E N]. rewrite app_nil_r in E. subst n. exact N.
  - intros N. pose proof (scan_number_shape raw N [] eq_refl) as R. rewrite app_nil_r in R. rewrite R. reflexivity.
Qed.

Lemma scan_number_lit raw : num_lit raw = true ->
  (exists c t, raw = c :: t /\ ((c =? 45) || is_digit c) = true) /\
  forall rest, stop rest = true -> scan_number (raw ++ rest) = Some (raw, rest).
Proof. intros H. apply num_lit_shape in H. split; [exact (num_shape_head raw H)|exact (scan_number_shape raw H)]. Qed.

Lemma str_lit_of_scan s b rest : scan_string s = Some (b, rest) -> str_lit b = true.
Proof. intros S. apply str_lit_body, (scan_string_inv _ _ _ S). Qed.

Lemma num_lit_of_scan s n rest : scan_number s = Some (n, rest) -> num_lit n = true.
Proof. intros S. apply num_lit_shape, (scan_number_inv _ _ _ S). Qed.

Lemma clean_str_lit s : clean_str s = true -> str_lit s = true.
Proof. intros C. apply str_lit_body, clean_str_body, C. Qed.


(* the values whose compact text parses back to themselves *)
Fixpoint gp_jv (v : jv) : bool :=
  match v with
  | JNum raw => num_lit raw
  | JStr raw => str_lit raw
  | JArr items => forallb gp_jv items
  | JObj ms => forallb (fun m => str_lit (fst m) && gp_jv (snd m)) ms
  | _ => true
  end.

(* the class the encoder stays in: numbers are canonical unsigned integers, strings and keys are
   clean (no escapes needed, none present) *)
Fixpoint pr_jv (v : jv) : bool :=
  match v with
  | JNum raw => canon_number raw
  | JStr raw => clean_str raw
  | JArr items => forallb pr_jv items
  | JObj ms => forallb (fun m => clean_str (fst m) && pr_jv (snd m)) ms
  | _ => true
  end.

(* fuel that suffices for [parse_value] on [print v] *)
Fixpoint size (v : jv) : nat :=
  match v with
  | JArr items => S (list_sum (map (fun x => S (size x)) items))
  | JObj ms => S (list_sum (map (fun m => S (size (snd m))) ms))
  | _ => 1
  end.

Section JvInd.
  Variable P : jv -> Prop.
  Hypothesis Hnull : P JNull.
  Hypothesis Htrue : P JTrue.
  Hypothesis Hfalse : P JFalse.
  Hypothesis Hnum : forall raw, P (JNum raw).
  Hypothesis Hstr : forall raw, P (JStr raw).
  Hypothesis Harr : forall items, Forall P items -> P (JArr items).
  Hypothesis Hobj : forall ms, Forall (fun m => P (snd m)) ms -> P (JObj ms).
  Fixpoint jv_ind' (v : jv) : P v :=
    match v with
    | JNull => Hnull
    | JTrue => Htrue
    | JFalse => Hfalse
    | JNum raw => Hnum raw
    | JStr raw => Hstr raw
    | JArr items =>
      Harr items ((fix go (l : list jv) : Forall P l :=
                     match l with
                     | [] => @Forall_nil _ P
                     | x :: r => @Forall_cons _ P x r (jv_ind' x) (go r)
                     end) items)
    | JObj ms =>
      Hobj ms ((fix go (l : list (bytes * jv)) : Forall (fun m => P (snd m)) l :=
                  match l with
                  | [] => @Forall_nil _ (fun m => P (snd m))
                  | m :: r => @Forall_cons _ (fun m => P (snd m)) m r (jv_ind' (snd m)) (go r)
                  end) ms)
    end.
End JvInd.

Lemma pr_gp : forall v, pr_jv v = true -> gp_jv v = true.
Proof.
  induction v as [| | |raw|raw|items IH|ms IH] using jv_ind'; cbn [pr_jv gp_jv]; intros P; try reflexivity.
  - apply num_lit_shape, canon_num_shape, P.
  - apply clean_str_lit. exact P.
  - apply forallb_forall. intros x Ix. rewrite Forall_forall in IH. rewrite forallb_forall in P. auto.
  - apply forallb_forall. intros x Ix. rewrite Forall_forall in IH. rewrite forallb_forall in P.
    specialize (P x Ix). apply andb_true_iff in P as [P1 P2].
    rewrite (clean_str_lit _ P1), (IH x Ix P2). reflexivity.
Qed.

Lemma skip_ws_nonws c r : is_ws c = false -> skip_ws (c :: r) = c :: r.
Proof. intros H. cbn [skip_ws]. rewrite H. reflexivity. Qed.

Lemma num_head c : ((c =? 45) || is_digit c) = true -> (c = 45 \/ 48 <= c <= 57) /\ is_ws c = false.
Proof.
  intros D. apply orb_true_iff in D as [D|D]; [apply Z.eqb_eq in D; subst c; split; [left|]; reflexivity|].
  apply is_digit_iff in D. split; [right; exact D|].
  unfold is_ws. rewrite !(proj2 (Z.eqb_neq c _)) by lia. reflexivity.
Qed.

Lemma pv_num f c r : ((c =? 45) || is_digit c) = true -> parse_value (S f) (c :: r) =
  match scan_number (c :: r) with Some (n, rest) => Some (JNum n, rest) | None => None end.
Proof.
  intros D. destruct (num_head c D) as [[->|R] W]; [reflexivity|]. cbn [parse_value skip_ws]. rewrite W.
  rewrite !(proj2 (Z.eqb_neq c _)) by lia. rewrite (proj2 (is_digit_iff c) R). reflexivity.
Qed.
Lemma print_head v : gp_jv v = true ->
  exists c t, print v = c :: t /\ is_ws c = false /\ (c =? 93) = false.
Proof.
  destruct v as [| | |raw|raw|items|ms]; cbn [gp_jv print]; intros H;
    try (eexists; eexists; split; [reflexivity|split; reflexivity]).
  destruct (scan_number_lit raw H) as [(c & t & -> & D) _].
  destruct (num_head c D) as [R W]. exists c, t. split; [reflexivity|]. split; [exact W|apply Z.eqb_neq; lia].
Qed.

Definition print_m (m : bytes * jv) : bytes := let '(k, v) := m in 34 :: k ++ 34 :: 58 :: print v.

Lemma print_obj ms : print (JObj ms) = 123 :: Json.join (map print_m ms) ++ [125].
Proof. reflexivity. Qed.
Lemma print_arr items : print (JArr items) = 91 :: Json.join (map print items) ++ [93].
Proof. reflexivity. Qed.

(* [join] tells one element from several; seen from the front, with the closing byte appended,
   it does not: the head element, then the closing byte or a comma and the rest *)
Lemma join_app_close x l c rest :
  Json.join (x :: l) ++ c :: rest =
  x ++ match l with [] => c :: rest | _ => 44 :: Json.join l ++ c :: rest end.
Proof. destruct l; [reflexivity|]. cbn [Json.join]. rewrite <- app_assoc. reflexivity. Qed.

Lemma stop_close (l : list bytes) c rest : stop (c :: rest) = true ->
  stop (match l with [] => c :: rest | _ => 44 :: Json.join l ++ c :: rest end) = true.
Proof. destruct l; [exact (fun H => H)|reflexivity]. Qed.

Lemma join_head c t l : exists t', Json.join (@cons bytes (c :: t) l) = c :: t'.
Proof. destruct l; eexists; reflexivity. Qed.

Definition pv_ok (v : jv) : Prop :=
  gp_jv v = true -> forall f rest, (size v <= f)%nat -> stop rest = true ->
  parse_value f (print v ++ rest) = Some (v, rest).

Lemma parse_elems_print items : Forall pv_ok items -> forallb gp_jv items = true -> items <> [] ->
  forall f rest, (list_sum (map (fun x => S (size x)) items) <= f)%nat ->
  parse_elems f (Json.join (map print items) ++ 93 :: rest) = Some (items, rest).
Proof.
  induction items as [|v vs IH]; intros F P NE f rest L; [congruence|].
  inversion F as [|? ? Fv Fvs]; subst. cbn [forallb] in P. apply andb_true_iff in P as [Pv Pvs].
  cbn [map list_sum fold_right] in L. fold (list_sum (map (fun x => S (size x)) vs)) in L.
  destruct f as [|f]; [lia|]. cbn [parse_elems map]. rewrite join_app_close.
  rewrite (Fv Pv f _ ltac:(lia) (stop_close _ 93 rest eq_refl)).
  pose proof (IH Fvs Pvs) as R. destruct vs as [|v2 vs']; [reflexivity|]. cbn [map] in R, L |- *.
  rewrite skip_ws_nonws by reflexivity. cbv beta iota.
  change (44 =? 93) with false. change (44 =? 44) with true. cbv beta iota.
  rewrite (R ltac:(discriminate) f rest ltac:(lia)). reflexivity.
Qed.

Lemma parse_members_print ms : Forall (fun m => pv_ok (snd m)) ms ->
  forallb (fun m => str_lit (fst m) && gp_jv (snd m)) ms = true -> ms <> [] ->
  forall f rest, (list_sum (map (fun m => S (size (snd m))) ms) <= f)%nat ->
  parse_members f (Json.join (map print_m ms) ++ 125 :: rest) = Some (ms, rest).
Proof.
  induction ms as [|[k v] r IH]; intros F P NE f rest L; [congruence|].
  inversion F as [|? ? Fv Fr]; subst. cbn [snd] in Fv.
  cbn [forallb fst snd] in P. apply andb_true_iff in P as [Pm Pr]. apply andb_true_iff in Pm as [Pk Pv].
  cbn [map list_sum fold_right snd] in L. fold (list_sum (map (fun m => S (size (snd m))) r)) in L.
  destruct f as [|f]; [lia|]. cbn [map]. rewrite join_app_close. cbn [print_m app parse_members Z.eqb Pos.eqb].
  rewrite <- !app_assoc. cbn [app]. rewrite (scan_string_lit k Pk).
  rewrite skip_ws_nonws by reflexivity. cbv beta iota. change (58 =? 58) with true. cbv beta iota.
  rewrite (Fv Pv f _ ltac:(lia) (stop_close _ 125 rest eq_refl)).
  destruct r as [|[k2 v2] r']; [reflexivity|]. cbn [map].
  rewrite skip_ws_nonws by reflexivity. cbv beta iota.
  change (44 =? 125) with false. change (44 =? 44) with true. cbv beta iota.
  pose proof (IH Fr Pr ltac:(discriminate) f rest ltac:(lia)) as R.
  cbn [map print_m] in R |- *. destruct (join_head 34 (k2 ++ 34 :: 58 :: print v2) (map print_m r')) as [t Et].
  rewrite Et in R |- *. cbn [app] in R |- *. rewrite skip_ws_nonws by reflexivity. rewrite R. reflexivity.
Qed.

Theorem parse_value_print : forall v, pv_ok v.
Proof.
  induction v as [| | |raw|raw|items IH|ms IH] using jv_ind'; unfold pv_ok; intros P f rest L S;
    cbn [size] in L; (destruct f as [|f]; [lia|]).
  - reflexivity.
  - reflexivity.
  - reflexivity.
  - cbn [gp_jv print] in *. destruct (scan_number_lit raw P) as [(c & t & E & D) Rp].
    pose proof (Rp rest S) as Sn. subst raw. cbn [app] in *. rewrite (pv_num f c _ D), Sn. reflexivity.
  - cbn [gp_jv print] in *. cbn [app parse_value skip_ws is_ws Z.eqb Pos.eqb orb]. rewrite <- app_assoc. cbn [app].
    rewrite (scan_string_lit raw P). reflexivity.
  - cbn [gp_jv] in P. rewrite print_arr. cbn [app parse_value skip_ws is_ws Z.eqb Pos.eqb orb]. rewrite <- app_assoc. cbn [app].
    destruct items as [|v vs]; [reflexivity|].
    assert (Pv : gp_jv v = true) by (cbn [forallb] in P; apply andb_true_iff in P as [P1 _]; exact P1).
    pose proof (parse_elems_print (v :: vs) IH P ltac:(discriminate) f rest ltac:(lia)) as Pe.
    destruct (print_head v Pv) as (c & t & Ec & Wc & Nc). cbn [map] in Pe |- *. rewrite Ec in Pe |- *.
    destruct (join_head c t (map print vs)) as [t' Ej]. rewrite Ej in Pe |- *. cbn [app] in Pe |- *.
    rewrite skip_ws_nonws by exact Wc. rewrite Nc, Pe. reflexivity.
  - cbn [gp_jv] in P. rewrite print_obj. cbn [app parse_value skip_ws is_ws Z.eqb Pos.eqb orb]. rewrite <- app_assoc. cbn [app].
    destruct ms as [|[k v] r]; [reflexivity|].
    pose proof (parse_members_print ((k, v) :: r) IH P ltac:(discriminate) f rest ltac:(lia)) as Pm.
    cbn [map print_m] in Pm |- *. destruct (join_head 34 (k ++ 34 :: 58 :: print v) (map print_m r)) as [t' Ej].
    rewrite Ej in Pm |- *. cbn [app] in Pm |- *. rewrite skip_ws_nonws by reflexivity.
    change (34 =? 125) with false. cbv beta iota. rewrite Pm. reflexivity.
Qed.

Lemma list_sum_le {A} (g h : A -> nat) l : Forall (fun x => (g x <= h x)%nat) l ->
  (list_sum (map g l) <= list_sum (map h l))%nat.
Proof.
  induction 1 as [|x l Hx Hl IH]; cbn [map list_sum fold_right]; [lia|].
  fold (list_sum (map g l)). fold (list_sum (map h l)). lia.
Qed.

Lemma join_size {A} (g : A -> nat) (pr : A -> bytes) l : Forall (fun x => (g x <= length (pr x))%nat) l ->
  (list_sum (map (fun x => S (g x)) l) <= length (Json.join (map pr l)) + 1)%nat.
Proof.
  intros F. destruct l as [|x l]; [cbn; lia|].
  rewrite (join_length (map pr (x :: l)) ltac:(discriminate)), map_map. apply list_sum_le.
  eapply Forall_impl; [|exact F]. cbn. intros; lia.
Qed.

Lemma size_le_plen : forall v, gp_jv v = true -> (size v <= plen v)%nat.
Proof.
  induction v as [| | |raw|raw|items IH|ms IH] using jv_ind'; intros P; unfold plen; cbn [size];
    try (cbn [print length]; lia).
  - cbn [gp_jv print] in *. destruct (scan_number_lit raw P) as [(c & t & -> & _) _]. cbn [length]. lia.
  - cbn [gp_jv] in P. rewrite print_arr. cbn [length]. rewrite app_length. cbn [length].
    rewrite Forall_forall in IH. rewrite forallb_forall in P.
    pose proof (join_size size print items (proj2 (Forall_forall _ _) (fun x Ix => IH x Ix (P x Ix)))). lia.
  - cbn [gp_jv] in P. rewrite print_obj. cbn [length]. rewrite app_length. cbn [length].
    rewrite Forall_forall in IH. rewrite forallb_forall in P.
    assert (F : Forall (fun m => (size (snd m) <= length (print_m m))%nat) ms).
    { apply Forall_forall. intros [k v] Ix. specialize (P _ Ix). apply andb_true_iff in P as [_ Px].
      specialize (IH _ Ix Px). unfold plen in IH. cbn [print_m snd length] in *.
      rewrite app_length. cbn [length]. lia. }
    pose proof (join_size _ print_m ms F). lia.
Qed.

Theorem parse_print_gp v : gp_jv v = true -> parse_json (print v) = Some v.
Proof.
  intros P. unfold parse_json.
  pose proof (size_le_plen v P) as L. unfold plen in L.
  pose proof (parse_value_print v P (S (S (length (print v)))) [] ltac:(lia) eq_refl) as H.
  rewrite app_nil_r in H. rewrite H. reflexivity.
Qed.

Theorem parse_print v : pr_jv v = true -> parse_json (print v) = Some v.
Proof. intros P. apply parse_print_gp. apply pr_gp. exact P. Qed.

Corollary compact_print v : pr_jv v = true -> compact (print v) = Some (print v).
Proof. intros P. unfold compact. rewrite (parse_print v P). reflexivity. Qed.

(* every value the parser returns is printable: json.Compact is idempotent.
   By induction on the fuel, for the three mutually recursive parsers at once.  Every raw text
   the parser keeps was cut off by scan_string or scan_number, so [str_lit_of_scan] and
   [num_lit_of_scan] close the leaves; the rest follows the parsers' case distinctions. *)
Lemma parse_gp_fuel : forall f,
  (forall s v rest, parse_value f s = Some (v, rest) -> gp_jv v = true) /\
  (forall s ms rest, parse_members f s = Some (ms, rest) ->
                     forallb (fun m => str_lit (fst m) && gp_jv (snd m)) ms = true) /\
  (forall s vs rest, parse_elems f s = Some (vs, rest) -> forallb gp_jv vs = true).
Proof.
  induction f as [|f (IHv & IHm & IHe)]; [repeat split; intros; discriminate|].
  repeat split.
  - intros s v rest. cbn [parse_value]. destruct (skip_ws s) as [|c r]; [discriminate|].
    destruct (c =? 123).
    { destruct (skip_ws r) as [|c' r']; [discriminate|]. destruct (c' =? 125); [intros [= <- _]; reflexivity|].
      destruct (parse_members f (c' :: r')) as [[ms rest']|] eqn:Pm; [|discriminate]. intros [= <- _].
      cbn [gp_jv]. apply (IHm _ _ _ Pm). }
    destruct (c =? 91).
    { destruct (skip_ws r) as [|c' r']; [discriminate|]. destruct (c' =? 93); [intros [= <- _]; reflexivity|].
      destruct (parse_elems f (c' :: r')) as [[vs rest']|] eqn:Pe; [|discriminate]. intros [= <- _].
      cbn [gp_jv]. apply (IHe _ _ _ Pe). }
    destruct (c =? 34).
    { destruct (scan_string r) as [[b rest']|] eqn:Ss; [|discriminate]. intros [= <- _].
      cbn [gp_jv]. apply (str_lit_of_scan _ _ _ Ss). }
    destruct (c =? 116); [destruct (Json.strip_prefix _ r); [intros [= <- _]; reflexivity|discriminate]|].
    destruct (c =? 102); [destruct (Json.strip_prefix _ r); [intros [= <- _]; reflexivity|discriminate]|].
    destruct (c =? 110); [destruct (Json.strip_prefix _ r); [intros [= <- _]; reflexivity|discriminate]|].
    destruct ((c =? 45) || is_digit c); [|discriminate].
    destruct (scan_number (c :: r)) as [[n rest']|] eqn:Sn; [|discriminate]. intros [= <- _].
    cbn [gp_jv]. apply (num_lit_of_scan _ _ _ Sn).
  - intros s ms rest. cbn [parse_members]. destruct s as [|c r]; [discriminate|].
    destruct (c =? 34); [|discriminate].
    destruct (scan_string r) as [[k r1]|] eqn:Sk; [|discriminate].
    pose proof (str_lit_of_scan _ _ _ Sk) as Lk.
    destruct (skip_ws r1) as [|c1 r2]; [discriminate|]. destruct (c1 =? 58); [|discriminate].
    destruct (parse_value f r2) as [[v r3]|] eqn:Pv; [|discriminate].
    destruct (skip_ws r3) as [|c3 r4]; [discriminate|].
    destruct (c3 =? 125).
    { intros [= <- _]. cbn [forallb fst snd]. rewrite Lk, (IHv _ _ _ Pv). reflexivity. }
    destruct (c3 =? 44); [|discriminate].
    destruct (parse_members f (skip_ws r4)) as [[ms' rest']|] eqn:Pm; [|discriminate]. intros [= <- _].
    cbn [forallb fst snd]. rewrite Lk, (IHv _ _ _ Pv), (IHm _ _ _ Pm). reflexivity.
  - intros s vs rest. cbn [parse_elems].
    destruct (parse_value f s) as [[v r1]|] eqn:Pv; [|discriminate].
    destruct (skip_ws r1) as [|c r2]; [discriminate|].
    destruct (c =? 93).
    { intros [= <- _]. cbn [forallb]. rewrite (IHv _ _ _ Pv). reflexivity. }
    destruct (c =? 44); [|discriminate].
    destruct (parse_elems f r2) as [[vs' rest']|] eqn:Pe; [|discriminate]. intros [= <- _].
    cbn [forallb]. rewrite (IHv _ _ _ Pv), (IHe _ _ _ Pe). reflexivity.
Qed.

Theorem parse_json_gp s v : parse_json s = Some v -> gp_jv v = true.
Proof.
  unfold parse_json. generalize (S (S (length s))). intros f.
  destruct (parse_value f s) as [[v' rest]|] eqn:P; [|discriminate].
  destruct (parse_gp_fuel f) as [H _]. apply H in P.
  destruct (skip_ws rest); [|discriminate]. intros [= <-]. exact P.
Qed.

Lemma gp_wf : forall v, gp_jv v = true -> wf_jv v = true.
Proof.
  induction v as [| | |raw|raw|items IH|ms IH] using jv_ind'; cbn [gp_jv wf_jv]; intros P; try reflexivity.
  - apply num_shape_ok, num_lit_shape, P.
  - apply str_body_nbq, str_lit_body, P.
  - apply forallb_forall. intros x Ix. rewrite Forall_forall in IH. rewrite forallb_forall in P. auto.
  - apply forallb_forall. intros x Ix. rewrite Forall_forall in IH. rewrite forallb_forall in P.
    specialize (P x Ix). apply andb_true_iff in P as [_ P2]. auto.
Qed.

Theorem gp_jv_iff v : gp_jv v = true <-> parse_json (print v) = Some v.
Proof. split; [apply parse_print_gp|apply parse_json_gp]. Qed.

(* re-parsing the compacted text of a parsed value gives the same value: what Model/Codec.v
   assumes when it lets the nested json.Unmarshal calls work on [print v] *)
Theorem parse_print_parse s v : parse_json s = Some v -> parse_json (print v) = Some v.
Proof. intros H. apply parse_print_gp. apply (parse_json_gp s). exact H. Qed.

Theorem compact_idempotent s c : compact s = Some c -> compact c = Some c.
Proof.
  unfold compact. destruct (parse_json s) as [v|] eqn:P; [|discriminate]. intros [= <-].
  rewrite (parse_print_parse s v P). reflexivity.
Qed.

(* [wf_jv] (what [gp_wf] says of the raw texts the parser keeps) does not imply
   that the printed text parses back: a lone minus sign is [num_ok], a raw control byte is
   [no_bare_quote], keys are not constrained at all.  (None of these trees is ever produced by
   [parse_json]: see [parse_json_gp].) *)
Example wf_jv_is_not_enough :
  wf_jv (JNum [45]) = true /\ parse_json (print (JNum [45])) = None /\
  wf_jv (JStr [10]) = true /\ parse_json (print (JStr [10])) = None /\
  wf_jv (JObj [([34], JNull)]) = true /\ parse_json (print (JObj [([34], JNull)])) = None /\
  wf_jv (JNum [49; 32]) = true /\ parse_json (print (JNum [49; 32])) = Some (JNum [49]).
Proof. vm_compute. repeat split; reflexivity. Qed.

Print Assumptions parse_print_gp.
Print Assumptions parse_print.
Print Assumptions compact_idempotent.
