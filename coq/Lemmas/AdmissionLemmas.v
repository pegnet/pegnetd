(* Lemmas/AdmissionLemmas.v — C13: which conversions are executed at which height. *)
From Model Require Import Ledger.
From Gen Require Import Consts.
From Coq Require Import Lia.
Open Scope Z_scope.

Section WithCfg.
Variable c : cfg.

Definition zero_rate (rates : gmap ticker Z) (t : tx) : bool := (rate_of rates (tx_type t) =? 0) || (rate_of rates (tx_conv t) =? 0).
Definition oneway_pfct (h : Z) (t : tx) : bool := (c_OneWaypFCTConversions c <=? h) && existsb (Z.eqb (tx_conv t)) oneway_pfct_dests.
Definition oneway_small (h : Z) (t : tx) : bool := (c_OneWaySmallAssetsConversions c <=? h) && existsb (Z.eqb (tx_conv t)) oneway_small_dests.

(* the decision of the first pass for a batch made of one conversion *)
Theorem admission_rule h s rates avgs t :
  is_conversion t = true -> is_empty_map rates = false ->
  check_txs c h s rates avgs [t] =
    if get_bal (bal s) (tx_addr t) (tx_type t) <? tx_amt t then Some (BRejected (-1))      (* insufficient funds *)
    else if zero_rate rates t then Some (BRejected (-4))                                    (* a rate is zero *)
    else if oneway_pfct h t then Some (BRejected (-3))                                      (* into pFCT, one-way *)
    else if oneway_small h t then Some (BRejected (-5))                                     (* into PEG / a small-cap asset, one-way *)
    else match conv_of c h rates avgs t with
         | None => Some BDropped          (* average unavailable from PIP-10 on, or the amount does not fit int64 *)
         | Some _ => None                 (* let through *)
         end.
Proof.
  intros Hc Hr. cbn [check_txs]. rewrite Hc, Hr. unfold zero_rate, oneway_pfct, oneway_small.
  destruct (_ <? tx_amt t); [reflexivity|]. destruct (_ || _); [reflexivity|].
  destruct (_ && _); [reflexivity|]. destruct (_ && _); [reflexivity|].
  destruct (conv_of c h rates avgs t); reflexivity.
Qed.

(* from 2.0 on a held batch with a conversion into PEG is refused (-2) and touches no balance *)
Theorem peg_conversion_refused_from_v20 cur rates avgs s e hh txs :
  entry_valid_at c e hh = Some txs -> c_V20HeightActivation c <= cur -> has_peg_conversion txs = true ->
  apply_held c cur rates avgs s e hh = Ok (set_executed s (e_hash e) (-2), false).
Proof.
  intros Hv Hh Hp. unfold apply_held. rewrite Hv, Hp.
  destruct (Z.leb_spec (c_V20HeightActivation c) cur); [reflexivity|lia].
Qed.

(* a single conversion that passes the first pass always reaches the recording step: it is never rejected or
   dropped; it is applied unless a storage statement fails (amounts outside the int64 domain) *)
Theorem accepted_conversion_is_recorded h s hs rates avgs t :
  is_conversion t = true -> check_txs c h s rates avgs [t] = None ->
  apply_batch c h s hs [t] rates avgs =
    match record_batch c h hs rates avgs [t] s with Ok s' => BApplied s' | Fail code => BFail code | Panic code => BFail code end.
Proof.
  intros Hc Hchk. unfold apply_batch. rewrite Hchk.
  cbn [check_txs] in Hchk. rewrite Hc in Hchk.
  destruct (Z.ltb_spec (get_bal (bal s) (tx_addr t) (tx_type t)) (tx_amt t)) as [|Hfund]; [discriminate|].
  destruct (is_empty_map rates); [discriminate|]. destruct (_ || _); [discriminate|].
  destruct (_ && _); [discriminate|]. destruct (_ && _); [discriminate|].
  destruct (conv_of c h rates avgs t) as [out|] eqn:Hconv; [|discriminate].
  cbn [sim_txs map]. unfold sim_get. fold (get_bal (bal s) (tx_addr t) (tx_type t)).
  destruct (Z.ltb_spec (get_bal (bal s) (tx_addr t) (tx_type t)) (tx_amt t)); [lia|].
  rewrite Hc, Hconv. reflexivity.
Qed.
End WithCfg.
