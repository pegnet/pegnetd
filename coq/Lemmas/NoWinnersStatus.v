(* Lemmas/NoWinnersStatus.v — C12 / C07: a block without winners executes no pending conversion.  In such a block the
   batch-status table (pn_history_txbatch) only GROWS: every row recorded before the block is still there, unchanged,
   in the same place -- so a batch that was pending before the block is pending after it, whatever the block contains.
   (The holding pass is the only code that changes the status of an earlier batch, and it runs only when the block
   recorded rates.) *)
From Model Require Import Block.
From Lemmas Require Import DbLemmas LedgerLemmas BlockLemmas ChainLemmas HistoryLemmas NoWinners.
From Gen Require Import Consts.
From Coq Require Import RelationClasses Lia.
Open Scope Z_scope.

Definition hist_prefix (l l' : list hbatch) : Prop := exists ext, l' = l ++ ext.
Global Instance hist_prefix_po : PreOrder hist_prefix.
Proof.
  split.
  - intros l. exists []. rewrite app_nil_r. reflexivity.
  - intros a b d [e1 ->] [e2 ->]. exists (e1 ++ e2). rewrite app_assoc. reflexivity.
Qed.

(* without marks of execution the writes of the ledger only append to the table *)
Lemma lwrites_hist_prefix K rw s s' : lwrites K rw false s s' -> hist_prefix (hist s) (hist s').
Proof.
  apply (lwrites_pres hist hist_prefix). intros s0 s1 H. inversion H; subst; untouched.
  eexists; reflexivity.
Qed.

Section WithCfg.
Variable c : cfg.

Lemma record_txs_hist h hs rates avgs txs : forall idx s s',
  record_txs c h hs rates avgs idx txs s = Ok s' ->
  hist s' = match txs with [] => hist s | _ => mark_exec hs h (hist s) end.
Proof. exact (record_txs_marks c h hs rates avgs txs). Qed.

Lemma apply_entry_hist_prefix h s order e s' : apply_entry c h s order e = Ok s' -> hist_prefix (hist s) (hist s').
Proof.
  intros H. apply apply_entry_inv in H as [->|(txs & s1 & _ & _ & Hh & H1 & H2)]; [reflexivity|].
  assert (E1 : exists r, hist s1 = hist s ++ [r]) by (apply LedgerLemmas.insert_history_ok in H1 as (_ & lks & ->); eexists; reflexivity).
  destruct E1 as (r & E1).
  assert (Hm : forall code sx, hist sx = hist s1 \/ hist sx = mark_exec (e_hash e) code (hist s1) -> hist_prefix (hist s) (hist sx)).
  { intros code sx [-> | ->]; rewrite E1.
    - eexists; reflexivity.
    - rewrite mark_exec_app, (mark_exec_fresh _ _ _ Hh). eexists; reflexivity. }
  destruct H2 as [[_ H]|[_ [Eb|[->| ->]]]].
  - apply insert_holding_ok in H as (_ & ->). apply (Hm 0). left; reflexivity.
  - apply apply_batch_applied_is_record, record_txs_hist in Eb. apply (Hm h). destruct txs; [left|right]; exact Eb.
  - apply (Hm (-1)). right. apply hist_set_executed.
  - apply (Hm 0). left; reflexivity.
Qed.

Lemma apply_tx_block_hist_prefix h s es s' : apply_tx_block c h s es = Ok s' -> hist_prefix (hist s) (hist s').
Proof.
  apply (apply_tx_block_invariant c (fun x => hist_prefix (hist s) (hist x))); [|reflexivity].
  intros s0 i e s1 _ Hp H. etransitivity; [exact Hp|eapply apply_entry_hist_prefix; exact H].
Qed.

(* without rates there is no holding pass: the transaction phase is the snapshot and the arriving entries *)
Lemma tx_phase_unrated_hist_prefix cm mem b s s' mem' :
  tx_phase c cm mem b false s = Done (s', mem') -> hist_prefix (hist s) (hist s').
Proof.
  intros H. apply tx_phase_inv in H as [(_ & -> & _)|(s1 & r & s2 & Hs & Hh & H3)]; [reflexivity|]. inversion Hh; subst s2.
  transitivity (hist s1); [exact (lwrites_hist_prefix True _ _ _ (snapshot_phase_writes c _ _ _ _ _ _ Hs))|].
  destruct (b_tx b); [eapply apply_tx_block_hist_prefix; exact H3|inversion H3; reflexivity].
Qed.

Lemma sync_block_no_winners_status cm mem b s s' mem' :
  sync_block c cm mem b s = Done (s', mem') ->
  (forall g, grade_opr c cm b = Done g -> no_winners g) ->
  (c_V20HeightActivation c <= b_height b -> forall g, grade_spr c cm b = Done g -> no_winners g) ->
  hist_prefix (hist s) (hist s').
Proof.
  intros H Ho Hs. apply sync_block_choice_inv in H as (g & gS & s2 & s3 & Hg & HgS & H2 & H3 & H).
  rewrite (no_winners_block_choice c _ _ _ _ Ho Hs Hg HgS) in H.
  transitivity (hist s2); [exact (lwrites_hist_prefix _ _ _ _ (adjust_phase_writes c _ _ _ _ H2))|]. transitivity (hist s3).
  { destruct g; [apply insert_grade_shape in H3 as (? & ? & ->)|inversion H3]; reflexivity. }
  destruct H as [[-> _]|(s5 & H5 & H6)]; [reflexivity|].
  transitivity (hist s5); [exact (tx_phase_unrated_hist_prefix _ _ _ _ _ _ H5)|].
  exact (lwrites_hist_prefix True _ _ _ (payout_phase_writes c _ _ _ _ _ _ H6)).
Qed.

Theorem no_winners_no_status_change cm mem b s' mem' :
  step_block c cm mem b = Done (s', mem') ->
  (forall g, grade_opr c cm b = Done g -> no_winners g) ->
  (c_V20HeightActivation c <= b_height b -> forall g, grade_spr c cm b = Done g -> no_winners g) ->
  hist_prefix (hist cm) (hist s').
Proof.
  intros H Ho Hs. apply step_block_inv in H as (s1 & H1 & H2).
  apply insert_synced_shape in H2 as (_ & ->). cbn [hist set_synced].
  etransitivity; [|exact (sync_block_no_winners_status _ _ _ _ _ _ H1 Ho Hs)].
  exact (lwrites_hist_prefix _ _ _ _ (pre_burn_writes c cm b)).
Qed.

(* what it means for a batch: its status after the block is its status before *)
Corollary no_winners_pending_stays_pending cm mem b s' mem' r :
  step_block c cm mem b = Done (s', mem') ->
  (forall g, grade_opr c cm b = Done g -> no_winners g) ->
  (c_V20HeightActivation c <= b_height b -> forall g, grade_spr c cm b = Done g -> no_winners g) ->
  In r (hist cm) -> In r (hist s').
Proof.
  intros H Ho Hs Hin. destruct (no_winners_no_status_change _ _ _ _ _ H Ho Hs) as [ext ->]. apply in_or_app. left; exact Hin.
Qed.

End WithCfg.

(* non-vacuity: in the example chain the conversion entered at 102 is pending before the unrated block 103 and after it *)
From Model Require Import Examples.
Example no_winners_status_example :
  match replay ex_cfg genesis empty_cache (firstn 2 ex_chain) with
  | Done (s2, m2) =>
    existsb (fun r => (hb_hash r =? 602) && (hb_exec r =? 0)) (hist s2) = true /\
    match step_block ex_cfg s2 m2 (nth 2 ex_chain (ex_block 0 None None [])) with
    | Done (s3, _) => firstn (length (hist s2)) (hist s3) = hist s2 /\ (length (hist s2) < length (hist s3))%nat
    | _ => False
    end
  | _ => False
  end.
Proof.
  set (b3 := nth 2 ex_chain _).
  assert (H : match replay ex_cfg genesis empty_cache (firstn 2 ex_chain) with
              | Done (s2, m2) =>
                existsb (fun r => (hb_hash r =? 602) && (hb_exec r =? 0)) (hist s2) &&
                match grade_opr ex_cfg s2 b3, step_block ex_cfg s2 m2 b3 with
                | Done None, Done (s3, _) => (length (hist s2) <? length (hist s3))%nat
                | _, _ => false
                end
              | _ => false
              end = true) by (vm_compute; reflexivity).
  destruct (replay ex_cfg genesis empty_cache _) as [[s2 m2]| | |]; try discriminate H.
  apply andb_prop in H as [H1 H]. split; [exact H1|].
  destruct (grade_opr ex_cfg s2 b3) as [[|]| | |] eqn:Eg; try discriminate H.
  destruct (step_block ex_cfg s2 m2 b3) as [[s3 m3]| | |] eqn:E3; try discriminate H.
  destruct (no_winners_no_status_change ex_cfg _ _ _ _ _ E3) as [ext E].
  - intros g Hg. rewrite Eg in Hg. inversion Hg. exact I.
  - intros Hle. vm_compute in Hle. contradiction Hle. reflexivity.
  - apply Nat.ltb_lt in H. split; [|exact H].
    rewrite E, firstn_app, firstn_all, Nat.sub_diag, firstn_O, app_nil_r. reflexivity.
Qed.
