(* Lemmas/TotalityExamples.v — the hypotheses of the totality theorems are satisfiable on a
   non-trivial state (the state after the example chain), and each of them is necessary in the
   model: without it the ledger functions do return [Fail].  Everything by vm_compute. *)
From Model Require Import Examples.
From Lemmas Require Import DbLemmas LedgerLemmas TotalityLemmas TotalityHolding.
From Gen Require Import Consts.
Open Scope Z_scope.
Open Scope list_scope.

(* the state after the four blocks of the example chain: balances of alice and bob in pFCT, pUSD and
   PEG, five history batches, the held conversion 602, relation rows *)
Definition ex_state : db :=
  match replay ex_cfg genesis empty_cache ex_chain with Done (s, _) => s | _ => empty_db end.

Example ex_state_nontrivial :
  length (hist ex_state) = 5%nat /\ length (htxs ex_state) = 5%nat /\ length (holding ex_state) = 1%nat /\
  get_bal (bal ex_state) alice PTickerFCT = 50 /\ get_bal (bal ex_state) bob PTickerFCT = 30.
Proof. vm_compute. repeat split. Qed.

Example ex_state_closed : hist_closed ex_state.
Proof. apply hist_closedb_spec. vm_compute. reflexivity. Qed.

Definition ex_two_transfers (hs : hash) : entry :=
  {| e_hash := hs; e_ts := 3000;
     e_batch := Some [{| tx_addr := alice; tx_type := PTickerFCT; tx_amt := 10;
                         tx_transfers := [{| tr_addr := bob; tr_amt := 4 |}; {| tr_addr := alice; tr_amt := 6 |}]; tx_conv := 0 |};
                      {| tx_addr := alice; tx_type := PTickerUSD; tx_amt := 0;
                         tx_transfers := [{| tr_addr := bob; tr_amt := 0 |}]; tx_conv := 0 |}];
     e_rcde := false |}.

Example apply_entry_total_hyps :
  hist_closed ex_state /\ entry_wf ex_cfg 105 (ex_two_transfers 700) = true /\
  arrival_credit ex_cfg 105 (ex_two_transfers 700) = 10 /\
  bal_room ex_state (arrival_credit ex_cfg 105 (ex_two_transfers 700) + 0).
Proof.
  split; [exact ex_state_closed|]. split; [vm_compute; reflexivity|]. split; [vm_compute; reflexivity|].
  apply bal_roomb_spec. vm_compute. reflexivity.
Qed.
Example apply_entry_total_instance :
  exists s', apply_entry ex_cfg 105 ex_state 0 (ex_two_transfers 700) = Ok s' /\ hist_closed s' /\ bal_room s' 0.
Proof.
  destruct apply_entry_total_hyps as (H1 & H2 & _ & H4). apply apply_entry_total; auto. reflexivity.
Qed.

(* repeated hashes, garbage, a conversion, an old hash, an overdraft, a negative amount *)
Definition ex_garbage (hs : hash) : entry := {| e_hash := hs; e_ts := 0; e_batch := None; e_rcde := false |}.
Definition ex_negative (hs : hash) : entry :=
  {| e_hash := hs; e_ts := 3000;
     e_batch := Some [{| tx_addr := alice; tx_type := PTickerFCT; tx_amt := -5;
                         tx_transfers := [{| tr_addr := bob; tr_amt := -5 |}]; tx_conv := 0 |}];
     e_rcde := false |}.
Definition ex_block_entries : list entry :=
  [ ex_two_transfers 700; ex_two_transfers 700; ex_garbage 701; ex_garbage 700; ex_conversion 702 5; ex_conversion 702 5;
    ex_transfer 601 30; ex_transfer 602 1; ex_transfer 703 100000; ex_negative 704; ex_transfer 705 7; ex_transfer 703 1 ].

Example apply_tx_block_total_hyps :
  hist_closed ex_state /\ Forall (fun e => entry_wf ex_cfg 105 e = true) ex_block_entries /\
  block_credit ex_cfg 105 ex_block_entries = 100059 /\
  bal_room ex_state (block_credit ex_cfg 105 ex_block_entries + 0).
Proof.
  split; [exact ex_state_closed|]. split; [repeat constructor|]. split; [vm_compute; reflexivity|].
  apply bal_roomb_spec. vm_compute. reflexivity.
Qed.
Example apply_tx_block_total_instance :
  exists s', apply_tx_block ex_cfg 105 ex_state ex_block_entries = Ok s' /\ hist_closed s' /\ bal_room s' 0.
Proof.
  destruct apply_tx_block_total_hyps as (H1 & H2 & _ & H4). apply apply_tx_block_total; auto. reflexivity.
Qed.
(* ... and what that block does: 700 and 705 executed, 702 held, 703 rejected, the rest skipped *)
Example apply_tx_block_total_effect :
  match apply_tx_block ex_cfg 105 ex_state ex_block_entries with
  | Ok s' => get_bal (bal s') alice PTickerFCT = 39 /\ get_bal (bal s') bob PTickerFCT = 41 /\
             map (fun r => (hb_hash r, hb_exec r)) (skipn 5 (hist s')) = [(700, 105); (702, 0); (703, -1); (705, 105)] /\
             hold_keys s' = [602; 702]
  | _ => False
  end.
Proof. vm_compute. repeat split. Qed.

(* a rated block after 2.0 with a held conversion, a held PEG conversion and a repeated hash *)
Definition ex_rates : gmap ticker Z := <[PTickerPEG := 200000000]> (<[PTickerUSD := 100000000]> (<[PTickerFCT := 400000000]> ∅)).
Definition ex_to_peg (hs : hash) (amount : Z) : entry :=
  {| e_hash := hs; e_ts := 2000;
     e_batch := Some [{| tx_addr := alice; tx_type := PTickerFCT; tx_amt := amount; tx_transfers := []; tx_conv := PTickerPEG |}];
     e_rcde := false |}.
(* committed database: blocks 405 and 406 (unrated) brought three held batches *)
Definition ex_cm : db :=
  match apply_tx_block ex_cfg 405 ex_state [ex_conversion 800 8; ex_to_peg 801 3] with
  | Ok s1 => match apply_tx_block ex_cfg 406 s1 [ex_conversion 802 100; ex_conversion 800 8] with Ok s2 => s2 | _ => empty_db end
  | _ => empty_db
  end.
(* pending state of block 407 once its rates are inserted *)
Definition ex_pending : db := set_rates ex_cm (<[407 := ex_rates]> (rates ex_cm)).

Example apply_holding_total_hyps :
  outside_bank_era ex_cfg 407 /\ is_empty_map ex_rates = false /\ rates_nonneg ex_rates /\
  length (holding_window ex_pending 407) = 303%nat /\ hold_keys ex_cm = [602; 800; 801; 802] /\
  holding_wf_basic ex_cfg ex_cm 407 (holding_window ex_pending 407) = true /\
  holding_credit ex_cfg ex_cm 407 ex_rates ex_rates (holding_window ex_pending 407) = 438 /\
  bal_room ex_pending (holding_credit ex_cfg ex_cm 407 ex_rates ex_rates (holding_window ex_pending 407) + 0).
Proof.
  split; [left; vm_compute; discriminate|]. split; [vm_compute; reflexivity|]. split; [apply rates_nonnegb_spec; vm_compute; reflexivity|].
  split; [vm_compute; reflexivity|]. split; [vm_compute; reflexivity|]. split; [vm_compute; reflexivity|].
  split; [vm_compute; reflexivity|]. apply bal_roomb_spec. vm_compute. reflexivity.
Qed.
Example apply_holding_total_instance :
  exists s', apply_holding ex_cfg ex_cm 407 ex_pending ex_rates ex_rates = Ok s' /\ keys s' = keys ex_pending /\ bal_room s' 0.
Proof.
  destruct apply_holding_total_hyps as (H1 & H2 & H3 & _ & _ & H6 & _ & H8).
  apply apply_holding_total_outside_bank_era; auto. reflexivity.
Qed.
(* 800 executed (8 pFCT -> 32 pUSD), 801 refused (-2: PEG conversion after 2.0), 802 rejected (-1: 100 pFCT asked, 42 there) *)
Example apply_holding_total_effect :
  match apply_holding ex_cfg ex_cm 407 ex_pending ex_rates ex_rates with
  | Ok s' => get_bal (bal s') alice PTickerFCT = 42 /\ get_bal (bal s') alice PTickerUSD - get_bal (bal ex_cm) alice PTickerUSD = 32 /\
             map (fun r => (hb_hash r, hb_exec r)) (skipn 5 (hist s')) = [(800, 407); (801, -2); (802, -1)]
  | _ => False
  end.
Proof. vm_compute. repeat split. Qed.

(* before the conversion limit: block 104 of the example chain (the held conversion 602 executes) and a
   held conversion into PEG, which is an ordinary conversion there *)
Definition ex_cm3 : db :=
  match replay ex_cfg genesis empty_cache (firstn 3 ex_chain) with
  | Done (s, _) => match apply_tx_block ex_cfg 103 s [ex_to_peg 604 4] with Ok s1 => s1 | _ => empty_db end
  | _ => empty_db
  end.
Definition ex_pending3 : db := set_rates ex_cm3 (<[104 := ex_rates]> (rates ex_cm3)).
Example apply_holding_total_prelimit :
  outside_bank_era ex_cfg 104 /\ hold_keys ex_cm3 = [602; 604] /\
  holding_wf_basic ex_cfg ex_cm3 104 (holding_window ex_pending3 104) = true /\
  bal_room ex_pending3 (holding_credit ex_cfg ex_cm3 104 ex_rates ex_rates (holding_window ex_pending3 104) + 0) /\
  match apply_holding ex_cfg ex_cm3 104 ex_pending3 ex_rates ex_rates with
  | Ok s' => get_bal (bal s') alice PTickerUSD = 80 /\ get_bal (bal s') alice PTickerPEG = 8
  | _ => False
  end.
Proof.
  split; [right; vm_compute; split; reflexivity|]. split; [vm_compute; reflexivity|]. split; [vm_compute; reflexivity|].
  split; [apply bal_roomb_spec; vm_compute; reflexivity|]. vm_compute. split; reflexivity.
Qed.

Example holding_then_block_total_instance :
  exists s1 s2, apply_holding ex_cfg ex_cm 407 ex_pending ex_rates ex_rates = Ok s1 /\
                apply_tx_block ex_cfg 407 s1 ex_block_entries = Ok s2 /\ hist_closed s2 /\ bal_room s2 0.
Proof.
  destruct apply_holding_total_hyps as (H1 & H2 & H3 & _ & _ & H6 & _ & _).
  assert (Hc : hist_closed ex_pending) by (apply hist_closedb_spec; vm_compute; reflexivity).
  assert (Hw : holding_wf ex_cfg ex_cm 407 (holding_window ex_pending 407) = true) by (apply holding_wf_basic_outside; assumption).
  assert (Hb : bank_row_ready ex_cfg 407 ex_pending) by (intros E; vm_compute in E; discriminate E).
  assert (He : Forall (fun e => entry_wf ex_cfg 407 e = true) ex_block_entries) by (repeat constructor).
  assert (Hr : bal_room ex_pending (holding_credit ex_cfg ex_cm 407 ex_rates ex_rates (holding_window ex_pending 407) + block_credit ex_cfg 407 ex_block_entries))
    by (apply bal_roomb_spec; vm_compute; reflexivity).
  exact (holding_then_block_total ex_cfg 407 ex_rates ex_rates ex_cm ex_pending ex_block_entries H2 H3 H3 Hc Hw Hb He Hr).
Qed.

(* inside the bank era (V4 <= 350 < 2.0): held batches without a PEG request are applied, the bank row of the
   block (written by sync_block before) is updated with "nothing requested" *)
Definition ex_cm350 : db :=
  match apply_tx_block ex_cfg 349 ex_state [ex_conversion 810 8; ex_conversion 811 1000] with Ok s1 => s1 | _ => empty_db end.
Definition ex_pending350 : db :=
  match insert_bank (set_rates ex_cm350 (<[350 := ex_rates]> (rates ex_cm350))) 350 BankBaseAmount with Ok s1 => s1 | _ => empty_db end.
Example apply_holding_total_bank_era :
  in_bank_era ex_cfg 350 = true /\ hold_keys ex_cm350 = [602; 810; 811] /\
  holding_wf ex_cfg ex_cm350 350 (holding_window ex_pending350 350) = true /\ bank_row_ready ex_cfg 350 ex_pending350 /\
  bal_room ex_pending350 (holding_credit ex_cfg ex_cm350 350 ex_rates ex_rates (holding_window ex_pending350 350) + 0) /\
  exists s', apply_holding ex_cfg ex_cm350 350 ex_pending350 ex_rates ex_rates = Ok s' /\ keys s' = keys ex_pending350 /\ bal_room s' 0.
Proof.
  assert (Hw : holding_wf ex_cfg ex_cm350 350 (holding_window ex_pending350 350) = true) by (vm_compute; reflexivity).
  assert (Hb : bank_row_ready ex_cfg 350 ex_pending350) by (intros _; vm_compute; discriminate).
  assert (Hr : bal_room ex_pending350 (holding_credit ex_cfg ex_cm350 350 ex_rates ex_rates (holding_window ex_pending350 350) + 0))
    by (apply bal_roomb_spec; vm_compute; reflexivity).
  split; [vm_compute; reflexivity|]. split; [vm_compute; reflexivity|]. split; [exact Hw|]. split; [exact Hb|]. split; [exact Hr|].
  assert (Hne : is_empty_map ex_rates = false) by (vm_compute; reflexivity).
  assert (Hrn : rates_nonneg ex_rates) by (apply rates_nonnegb_spec; vm_compute; reflexivity).
  exact (apply_holding_total ex_cfg 350 ex_rates ex_rates Hne Hrn Hrn ex_cm350 ex_pending350 0 Hw Hb (Z.le_refl 0) Hr).
Qed.

(* the exact exception (the recorded finding): a bank-era batch that mixes a PEG request with spends of PEG.
   bob holds 5 PEG and 30 pFCT: 4 pFCT -> PEG (deferred to the bank, but credited 8 PEG by the simulation), then
   5 PEG to alice twice: each passes the per-transaction check, the simulation says 5 + 8 - 5 - 5 >= 0,
   recordBatch runs out of PEG at the third transaction *)
Definition ex_mixed : entry :=
  {| e_hash := 812; e_ts := 2000;
     e_batch := Some [{| tx_addr := bob; tx_type := PTickerFCT; tx_amt := 4; tx_transfers := []; tx_conv := PTickerPEG |};
                      {| tx_addr := bob; tx_type := PTickerPEG; tx_amt := 5; tx_transfers := [{| tr_addr := alice; tr_amt := 5 |}]; tx_conv := 0 |};
                      {| tx_addr := bob; tx_type := PTickerPEG; tx_amt := 5; tx_transfers := [{| tr_addr := alice; tr_amt := 5 |}]; tx_conv := 0 |}];
     e_rcde := false |}.
Definition ex_cm350m : db :=
  match apply_tx_block ex_cfg 349 ex_state [ex_mixed] with Ok s1 => s1 | _ => empty_db end.
Definition ex_pending350m : db :=
  match insert_bank (set_rates ex_cm350m (<[350 := ex_rates]> (rates ex_cm350m))) 350 BankBaseAmount with Ok s1 => s1 | _ => empty_db end.
Example bank_era_mixed_batch_fails :
  hold_keys ex_cm350m = [602; 812] /\
  holding_wf ex_cfg ex_cm350m 350 (holding_window ex_pending350m 350) = false /\
  apply_holding ex_cfg ex_cm350m 350 ex_pending350m ex_rates ex_rates = Fail E_UNCAUGHT.
Proof. vm_compute. repeat split; reflexivity. Qed.

(* each hypothesis is necessary in the model: the exact exceptions *)
Definition one_tx (hs : hash) (a : addr) (ty amt : Z) (trs : list transfer) : entry :=
  {| e_hash := hs; e_ts := 0; e_batch := Some [{| tx_addr := a; tx_type := ty; tx_amt := amt; tx_transfers := trs; tx_conv := 0 |}];
     e_rcde := false |}.

(* entry_wf, ticker part: a zero-amount transaction on "ticker 0" reaches AddToBalance with no column
   (fat2's Transaction.Validate refuses such a ticker: Model/Codec.v tx_validate) *)
Example no_ticker_fails :
  entry_wf ex_cfg 105 (one_tx 900 alice 0 0 [{| tr_addr := bob; tr_amt := 0 |}]) = false /\
  apply_entry ex_cfg 105 ex_state 0 (one_tx 900 alice 0 0 [{| tr_addr := bob; tr_amt := 0 |}]) = Fail E_BADCOLUMN.
Proof. vm_compute. split; reflexivity. Qed.

(* entry_wf, signer part: if the burn address could sign.  It holds 10 pFCT (credited before 2.0.2, or a
   miner's payout address), spends them, is "credited" 10 by alice — which recordBatch skips but the
   simulation counts — and spends them again: "uncaught: insufficient balance", the block fails for ever.
   Needs a signature of the burn address: not realisable. *)
Definition ex_burn_state : db := set_bal ex_state (<[(GlobalBurnAddress, PTickerFCT) := 10]> (bal ex_state)).
Definition ex_burn_batch : entry :=
  {| e_hash := 901; e_ts := 0;
     e_batch := Some [{| tx_addr := GlobalBurnAddress; tx_type := PTickerFCT; tx_amt := 10; tx_transfers := [{| tr_addr := bob; tr_amt := 10 |}]; tx_conv := 0 |};
                      {| tx_addr := alice; tx_type := PTickerFCT; tx_amt := 10; tx_transfers := [{| tr_addr := GlobalBurnAddress; tr_amt := 10 |}]; tx_conv := 0 |};
                      {| tx_addr := GlobalBurnAddress; tx_type := PTickerFCT; tx_amt := 10; tx_transfers := [{| tr_addr := bob; tr_amt := 10 |}]; tx_conv := 0 |}];
     e_rcde := false |}.
Example burn_signer_fails :
  hist_closedb ex_burn_state = true /\ bal_roomb ex_burn_state 30 = true /\ entry_wf ex_cfg 601 ex_burn_batch = false /\
  apply_entry ex_cfg 601 ex_burn_state 0 ex_burn_batch = Fail E_UNCAUGHT.
Proof. vm_compute. repeat split; reflexivity. Qed.

(* bal_room: a cell at max_int64 that is credited 1 *)
Definition ex_full_state : db := set_bal ex_state (<[(bob, PTickerFCT) := max_int64]> (bal ex_state)).
Example full_cell_fails :
  bal_roomb ex_full_state 0 = true /\ bal_roomb ex_full_state 1 = false /\
  apply_entry ex_cfg 105 ex_full_state 0 (ex_transfer 902 1) = Fail E_OVERFLOW_CELL.
Proof. vm_compute. repeat split; reflexivity. Qed.
(* a transfer amount with the high bit set never reaches the database: entry_valid_at asks, as fat2's
   Validate does, that the outputs add up to the input and that the input fits int64; the entry is skipped *)
Example huge_transfer_is_skipped :
  apply_entry ex_cfg 105 ex_state 0 (one_tx 903 alice PTickerFCT 0 [{| tr_addr := bob; tr_amt := two63 |}]) = Ok ex_state.
Proof.
  assert (E : entry_valid_at ex_cfg (one_tx 903 alice PTickerFCT 0 [{| tr_addr := bob; tr_amt := two63 |}]) 105 = None) by (vm_compute; reflexivity).
  unfold apply_entry. rewrite E. reflexivity.
Qed.

(* hist_closed: a transaction row, or a held batch, whose hash has no batch row *)
Definition ex_orphan_row : db :=
  set_htxs ex_state (htxs ex_state ++ [{| ht_hash := 904; ht_index := 0; ht_action := 1; ht_from := alice; ht_from_asset := 2;
     ht_from_amount := 0; ht_to_asset := 0; ht_to_amount := 0; ht_outputs := [] |}]) (lookups ex_state).
Example orphan_row_fails :
  hist_closedb ex_orphan_row = false /\ apply_entry ex_cfg 105 ex_orphan_row 0 (ex_transfer 904 1) = Fail E_UNIQUE_HIST.
Proof. vm_compute. split; reflexivity. Qed.
Definition ex_orphan_held : db :=
  set_holding ex_state (holding ex_state ++ [{| h_entry := ex_conversion 905 1; h_height := 104 |}]).
Example orphan_held_fails :
  hist_closedb ex_orphan_held = false /\ apply_entry ex_cfg 105 ex_orphan_held 0 (ex_conversion 905 1) = Fail E_UNIQUE_HOLDING.
Proof. vm_compute. split; reflexivity. Qed.

(* apply_holding: without rates the first loop fails the block ("rates must exist ...") *)
Example no_rates_fails :
  apply_holding ex_cfg ex_cm 407 ex_pending ∅ ∅ = Fail E_NORATES.
Proof. vm_compute. reflexivity. Qed.

Print Assumptions insert_history_total.
Print Assumptions insert_holding_total.
Print Assumptions apply_entry_total.
Print Assumptions apply_tx_block_total.
Print Assumptions apply_holding_total.
Print Assumptions holding_then_block_total.
