(* C18 over Gen/Sites.v: the API only reads, and only through the pool; the fields shared between the
   sync loop and the API, and their locking. *)
From Coq Require Import String List.
From Gen Require Import Sites.
From Model Require Import SitesSpec.
Import ListNotations.
Open Scope string_scope.


Lemma api_roots_expected : check_api_roots = true.
Proof. vm_compute; reflexivity. Qed.

Lemma api_never_writes : forallb is_read api_effective_sql = true.
Proof. vm_compute; reflexivity. Qed.

Lemma api_never_writes_forall : forall r, In r api_effective_sql -> eff_rw r = "R".
Proof. intros r Hin. apply String.eqb_eq, (proj1 (forallb_forall _ _) api_never_writes r Hin). Qed.

Lemma api_reads_pool_only : forallb on_pool api_effective_sql = true.
Proof. vm_compute; reflexivity. Qed.

Lemma api_reads_pool_only_forall : forall r, In r api_effective_sql -> eff_handle r = "pool".
Proof. intros r Hin. apply String.eqb_eq, (proj1 (forallb_forall _ _) api_reads_pool_only r Hin). Qed.

Lemma api_nil_calls_expected : check_api_nil_calls = true.
Proof. vm_compute; reflexivity. Qed.

(* the fields of Pegnetd / BlockSync written from the sync loop are exactly
   { Sync.Synced, LastAverages, LastAveragesData, LastAveragesHeight } *)
Lemma shared_fields_expected : check_sync_written_fields = true.
Proof. vm_compute; reflexivity. Qed.

Lemma shared_fields_no_other_writes : check_no_other_shared_writes = true.
Proof. vm_compute; reflexivity. Qed.

(* which of them the API also writes (the average cache, through get-rich-list / get-global-rich-list) *)
Lemma shared_fields_api_writes : check_api_written_fields = true.
Proof. vm_compute; reflexivity. Qed.

(* the API reads all four *)
Lemma shared_fields_api_reads : check_api_read_sync_written = true.
Proof. vm_compute; reflexivity. Qed.

(* the locking discipline: no field is in an unprotected conflict between the sync loop and the API *)
Lemma shared_fields_conflicts : check_conflicting_fields = true.
Proof. vm_compute; reflexivity. Qed.

