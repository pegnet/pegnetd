(* Lemmas/TotalityBlock.v — C08 (sync liveness): totality of the WHOLE block function in the live era.

   [step_block_total]: for a block at a height h >= V202EnhanceActivation (and past the transaction, 2.0 and
   developer-reward activations) — the one-time activation heights of that era included: NullifyBurnAddress, the
   mint, the burn of the minted tokens — from a committed state satisfying [hist_closed] and [bal_room _ 0], under
   [block_hyps]:

        step_block c cm mem b = Done (s', mem')        — never Stuck, never Crashed, no OracleMiss

   and the invariants hold again in s'.  Every hypothesis is a named definition over (c, cm, mem, b) with a
   boolean form ([block_hypsb]); TotalityBlockExamples.v evaluates them on the example chain and has, for most
   of them, a block on which the model is Stuck without it.  Why each is there:
     live_era         below 2.0.2 the block function does fail on inputs nobody controls: bank-era PEG requests,
                      a snapshot without rates, the SUM of the PEG equation, the zeroing coinbases of the old
                      NullifyBurnAddress.  Those heights are not covered.
     mint_room        the mint credits the mint address; block_room speaks of the state after it
     fresh_at         uniqueness of pn_grade / pn_rate / pn_sync_version rows; follows from increasing heights
                      (TotalityChain.tables_below)
     cache_nonneg mem the averages handed to Convert are uint64 in the code; kept by every block
     graders_answer   the grading libraries are oracles of the model
     sel_wf           InsertRates fails on a repeated name or a price >= 2^63; follows from the same property
                      of the two winning records (sel_wf_from_verdicts)
     snapshot_ok      the stake computation fails on a Convert error or a total above uint64
     held_batches_ok, entries_ok   what the decoder and the signature check guarantee (TotalityLemmas.entry_wf)
     coinbase_fresh   the block writes batch rows under synthetic hashes and the winners' entry hashes; to break
                      it from outside takes a hash preimage
     block_room       no cell within the block's credits of 2^63; with snapshot_ok the one hypothesis about the
                      economy and not the code
   The proof is one totality lemma per phase of sync_block (BlockLemmas.sync_block_phases), each handing on
   the room it has not used and the batch-row hashes still to be written ([fresh_for]). *)
From Model Require Import Block Obs.
From Lemmas Require Import ArithLemmas DbLemmas LedgerLemmas BlockLemmas ChainLemmas
     HistoryLemmas3 TotalityLemmas TotalityInvariant TotalityRange TotalityBlockParts TotalityAdjust TotalityHolding.
From Gen Require Import Consts.
From Coq Require Import Lia ZifyBool.
Open Scope Z_scope.
Open Scope list_scope.

(* the live era: transactions, PegNet 2.0, developer rewards and 2.0.2 are active *)
Definition live_era (c : cfg) (h : Z) : Prop :=
  c_TransactionConversionActivation c <= h /\ c_V20HeightActivation c <= h /\
  c_V20DevRewardsHeightActivation c <= h /\ c_V202EnhanceActivation c <= h.
(* the heights without a one-time adjustment (NullifyBurnAddress twice, mint, burn of the minted tokens); the theorem
   covers the others too *)
Definition plain_height (c : cfg) (h : Z) : Prop :=
  h <> c_V20DevRewardsHeightActivation c /\ h <> c_V202EnhanceActivation c /\
  h <> c_V204EnhanceActivation c /\ h <> c_V204BurnMintedTokenActivation c.
(* nothing recorded for this height yet (true when heights only grow: tables_below) *)
Definition fresh_at (h : Z) (cm : db) : Prop :=
  grades cm !! h = None /\ rates cm !! h = None /\ versions cm !! h = None /\ winner_rows_fresh h cm = true.
(* the grader libraries answer: the alternative the model asks for is present, NewGrader did not fail *)
Definition graders_answer (c : cfg) (cm : db) (b : block) : Prop :=
  (exists g, grade_opr c cm b = Done g) /\ (exists g, grade_spr c cm b = Done g) /\ grade_spr_err c cm b = false.

Definition winners_of (g : option verdict) : list winner := match g with Some v => v_winners v | None => [] end.
Definition entries_of (b : block) : list entry := match b_tx b with Some es => es | None => [] end.
Definition snap_due (h : Z) : bool := h mod SnapshotRate =? 0.

Section Plan.
Variables (c : cfg) (cm : db) (mem : avgcache) (b : block).
Let h := b_height b.

(* the state SyncBlock starts from (NullifyBurnAddress at its two activation heights) and the state after the mint /
   the burn of the minted tokens: they differ from cm in balances only *)
Definition res_or {A} (d : A) (r : res A) : A := match r with Ok a => a | _ => d end.
Definition pending : db :=
  let s := if h =? c_V20DevRewardsHeightActivation c then nullify_burn c cm h (b_ts b) cm else cm in
  if h =? c_V202EnhanceActivation c then nullify_burn c cm h (b_ts b) s else s.
Definition adj_of (s0 : db) : db :=
  let s1 := if h =? c_V204EnhanceActivation c then res_or s0 (mint_tokens s0) else s0 in
  if h =? c_V204BurnMintedTokenActivation c then res_or s1 (nullify_minted cm s1) else s1.
Definition adjusted : db := adj_of pending.
Definition mint_room : Prop := h = c_V204EnhanceActivation c -> bal_room pending mint_total.

Definition plan_g : option verdict := match grade_opr c cm b with Done g => g | _ => None end.
Definition plan_gS : option verdict := match grade_spr c cm b with Done g => g | _ => None end.
(* None: no rates this block; Some RErr: SyncBlock returns early (successfully); Some (RSel l): l is recorded.
   BlockLemmas.rate_choice from 2.0 on is [rated_of] ([rate_choice_rated]). *)
Definition sel_of (g gS : option verdict) : option rate_sel :=
  match first_assets g, first_assets gS with
  | [], [] => None
  | o, sp => Some (select_rates c h o sp)
  end.
Definition rated_of (g gS : option verdict) : option (list (Z * Z)) :=
  match sel_of g gS with Some (RSel l) => Some l | _ => None end.
Definition plan_rated : option (list (Z * Z)) := rated_of plan_g plan_gS.
(* the rates the snapshot and the held batches see *)
Definition rates1_of (r : option (list (Z * Z))) : gmap ticker Z :=
  match r with Some l => rate_map_of l | None => default ∅ (rates cm !! last_rated_below cm h) end.
Definition plan_avgs : gmap ticker Z := fst (get_averages cm (c_AveragePeriod c) mem (last_rated_below cm h)).

Definition sel_wf : bool := match plan_rated with Some l => assets_wfb l | None => true end.
Definition snapshot_ok : bool :=
  if snap_due h then stakes_fit c h (rates1_of plan_rated) (snap_cur cm) (bal adjusted) else true.
Definition held_batches_ok : bool :=
  match plan_rated with Some _ => holding_wf_basic c cm h (holding_window cm h) | None => true end.
Definition entries_ok : bool := forallb (entry_wf c h) (entries_of b).

(* the batch-row hashes the block writes by itself, in the order it writes them *)
Definition coinbase_of (g gS : option verdict) : list Z :=
  (if snap_due h then [mock_hash h] else []) ++ winner_hashes (winners_of g) ++ winner_hashes (winners_of gS) ++
  (if snap_due h then dev_hashes h else []).
Definition coinbase_fresh : Prop :=
  NoDup (coinbase_of plan_g plan_gS) /\
  forall x, In x (coinbase_of plan_g plan_gS) -> ~ In x (hist_keys cm) /\ ~ In x (map e_hash (entries_of b)).

(* everything the block can credit to one cell; [held_credit_of] is its second summand *)
Definition held_credit_of (rated : option (list (Z * Z))) : Z :=
  match rated with Some l => holding_credit c cm h (rate_map_of l) plan_avgs (holding_window cm h) | None => 0 end.
Definition credit_of (g gS : option verdict) : Z :=
  (if snap_due h then snapshot_bank else 0) +
  match rated_of g gS with Some l => holding_credit c cm h (rate_map_of l) plan_avgs (holding_window cm h) | None => 0 end +
  block_credit c h (entries_of b) + winners_credit (winners_of g) + winners_credit (winners_of gS) +
  (if snap_due h then dev_credit c h else 0).
Definition block_room : Prop := bal_room adjusted (credit_of plan_g plan_gS).

Definition block_hyps : Prop :=
  live_era c h /\ mint_room /\ fresh_at h cm /\ cache_nonneg mem /\ graders_answer c cm b /\
  sel_wf = true /\ snapshot_ok = true /\ held_batches_ok = true /\ entries_ok = true /\ coinbase_fresh /\ block_room.
End Plan.

Lemma is_empty_map_empty : is_empty_map (∅ : gmap ticker Z) = true.
Proof. unfold is_empty_map. rewrite map_to_list_empty. reflexivity. Qed.

(* the batch-row hashes the block has still to write are not in the table *)
Definition fresh_for (todo : list Z) (s : db) : Prop := forall x, In x todo -> ~ In x (hist_keys s).
Lemma fresh_for_incl todo q s s' :
  fresh_for todo s -> incl (hist_keys s') (hist_keys s ++ q) -> (forall x, In x todo -> ~ In x q) -> fresh_for todo s'.
Proof. intros Hf Hi Hq x Hx Hin. apply Hi, in_app_or in Hin as [Hin|Hin]; [exact (Hf x Hx Hin)|exact (Hq x Hx Hin)]. Qed.
Lemma fresh_for_app_l p r s : fresh_for (p ++ r) s -> fresh_for p s.
Proof. intros H x Hx. apply H, in_or_app. left. exact Hx. Qed.
Lemma fresh_for_app_r p r s : fresh_for (p ++ r) s -> fresh_for r s.
Proof. intros H x Hx. apply H, in_or_app. right. exact Hx. Qed.

(* what a writer has not written of the hashes still to come is still to come *)
Lemma fresh_for_done p r s s' : NoDup (p ++ r) -> fresh_for (p ++ r) s -> hist_keys s' = hist_keys s ++ p -> fresh_for r s'.
Proof.
  intros Hnd Hf E. apply (fresh_for_incl r p s s' (fresh_for_app_r _ _ _ Hf)); [rewrite E; apply incl_refl|].
  intros x Hx Hin. exact (nodup_app_disjoint _ _ x Hnd Hin Hx).
Qed.

(* [rated_of] is BlockLemmas.rate_choice from 2.0 on, where the phase recorded is always 3; [sel_of]
   also tells a failed selection (the block ends early) from no assets at all *)
Lemma rate_choice_rated c b g gS :
  c_V20HeightActivation c <= b_height b ->
  rate_choice c (b_height b) g gS = option_map (fun l => (l, 3)) (rated_of c b g gS).
Proof.
  intros H. unfold rate_choice, rated_of, sel_of. rewrite (proj2 (Z.ltb_ge _ _) H).
  destruct (first_assets g), (first_assets gS); try reflexivity; destruct (select_rates _ _ _ _); reflexivity.
Qed.

(* [0 <= a + (b + ... + n)] from the hypotheses [0 <= a], [0 <= b], ..., and [0 <= n] or n = 0 *)
Ltac sum_nonneg := repeat (apply Z.add_nonneg_nonneg; [assumption|]); first [assumption|apply Z.le_refl].

Section Walk.
Variables (c : cfg) (cm : db) (mem : avgcache) (b : block).
Let h := b_height b.

Lemma nullify_minted_phase_total s1 :
  nonneg cm -> bal_room s1 0 ->
  of_res (if h =? c_V204BurnMintedTokenActivation c then nullify_minted cm s1 else Ok s1) =
    Done (if h =? c_V204BurnMintedTokenActivation c then res_or s1 (nullify_minted cm s1) else s1) /\
  shrunk s1 (if h =? c_V204BurnMintedTokenActivation c then res_or s1 (nullify_minted cm s1) else s1).
Proof.
  intros Hnn Hr. destruct (h =? _); [|split; [reflexivity|apply shrunk_refl]].
  destruct (nullify_minted_total cm s1 Hnn Hr) as (s2 & N1 & N2). rewrite N1. split; [reflexivity|exact N2].
Qed.

Lemma adjust_phase_total s0 :
  nonneg cm -> bal_room s0 0 -> (h = c_V204EnhanceActivation c -> bal_room s0 mint_total) ->
  adjust_phase c cm h s0 = Done (adj_of c cm b s0) /\ only_bal s0 (adj_of c cm b s0) /\ bal_room (adj_of c cm b s0) 0.
Proof.
  intros Hnn Hr0 Hmint. unfold adjust_phase, adj_of. fold h. cbv zeta.
  destruct (Z.eqb_spec h (c_V204EnhanceActivation c)) as [Em|Em].
  - destruct (mint_tokens_total s0 0) as (s1 & M1 & M2 & M3); [apply Z.le_refl|rewrite Z.add_0_r; exact (Hmint Em)|].
    rewrite M1. cbn [of_res obind res_or]. destruct (nullify_minted_phase_total s1 Hnn M3) as [B1 B2].
    split; [exact B1|]. split; [exact (only_bal_trans _ _ _ M2 (proj1 B2))|exact (shrunk_room _ _ _ B2 M3)].
  - cbn [of_res obind]. destruct (nullify_minted_phase_total s0 Hnn Hr0) as [B1 B2].
    split; [exact B1|]. split; [exact (proj1 B2)|exact (shrunk_room _ _ _ B2 Hr0)].
Qed.

(* from 2.0 on the rate phase is a function of [sel_of] *)
Lemma rate_phase_sel g gS s :
  c_V20HeightActivation c <= h -> grade_spr_err c cm b = false ->
  rate_phase c cm b g gS s =
  let! s1 := match g with Some v => of_res (insert_grade h s v) | None => Done s end in
  match sel_of c b g gS with
  | None => Done (s1, false, false)
  | Some RErr => Done (s1, false, true)
  | Some (RSel l) => let! s2 := of_res (insert_rates cm h s1 l 3) in Done (s2, true, false)
  end.
Proof.
  intros L20 Herr. unfold rate_phase, sel_of. cbv zeta. fold h. rewrite (proj2 (Z.ltb_ge _ _) L20), Herr.
  destruct (match g with Some v => of_res (insert_grade h s v) | None => Done s end); [cbn [obind]|reflexivity..].
  destruct (first_assets g), (first_assets gS); reflexivity.
Qed.

(* [rated]: the rates recorded for this block, if any; the state has them at h *)
Definition rates_with (rated : option (list (Z * Z))) (s : db) : Prop :=
  rates s = match rated with Some l => <[h := rate_map_of l]> (rates cm) | None => rates cm end.

Lemma rate_phase_total g gS sp :
  c_V20HeightActivation c <= h -> grade_spr_err c cm b = false -> only_bal cm sp -> fresh_at h cm ->
  match rated_of c b g gS with Some l => assets_wfb l | None => true end = true ->
  exists s3,
    rate_phase c cm b g gS sp =
      Done (s3, match rated_of c b g gS with Some _ => true | None => false end,
                match sel_of c b g gS with Some RErr => true | _ => false end) /\
    bal s3 = bal sp /\ keys s3 = keys cm /\ snap_cur s3 = snap_cur cm /\ rates_with (rated_of c b g gS) s3.
Proof.
  intros L20 Herr Hob (Fg & Fr & _ & Fw) Hsel. rewrite (rate_phase_sel g gS sp L20 Herr). unfold rates_with.
  assert (HG : exists s1, match g with Some v => of_res (insert_grade h sp v) | None => Done sp end = Done s1 /\
             bal s1 = bal sp /\ keys s1 = keys cm /\ snap_cur s1 = snap_cur cm /\ rates s1 = rates cm).
  { (* sp is cm with other balances *)
    rewrite Hob. destruct g as [v|]; [|eexists; repeat (split; [reflexivity|]); reflexivity].
    destruct (insert_grade_total h (set_bal cm (bal sp)) v Fg Fw) as (w0 & EG & _). rewrite EG. eexists. repeat (split; [reflexivity|]). reflexivity. }
  destruct HG as (s1 & EG & G). rewrite EG. cbn [obind].
  unfold rated_of in *. destruct (sel_of c b g gS) as [[l|]|]; [|exists s1; split; [reflexivity|exact G]..].
  destruct G as (G1 & G2 & G3 & G4).
  rewrite (insert_rates_floating_eq cm h s1 l); [|rewrite G4; exact Fr|exact Hsel]. cbn [of_res obind].
  eexists. split; [reflexivity|]. split; [exact G1|]. split; [exact G2|]. split; [exact G3|].
  cbn [rates set_rates]. rewrite G4. reflexivity.
Qed.

Lemma snapshot_phase_total rated s n :
  live_era c h -> rates cm !! h = None -> rates_with rated s ->
  hist_closed s -> 0 <= n -> bal_room s ((if snap_due h then snapshot_bank else 0) + n) ->
  (if snap_due h then stakes_fit c h (rates1_of cm b rated) (snap_cur s) (bal s) else true) = true ->
  fresh_for (if snap_due h then [mock_hash h] else []) s ->
  exists s' r1, snapshot_phase c h (b_ts b) s = Done (s', r1) /\ bal_room s' n /\
    incl (hist_keys s') (hist_keys s ++ (if snap_due h then [mock_hash h] else [])) /\
    (forall l, rated = Some l -> r1 = rate_map_of l).
Proof.
  intros (_ & L20 & _ & L202) Fr Hrt Hcl Hn Hr Hsnap Hf. unfold rates_with in Hrt. unfold snapshot_phase. cbv zeta.
  assert (E3 : (c_V20HeightActivation c <=? h) = true) by lia. rewrite E3. cbn [andb]. fold (snap_due h).
  destruct (snap_due h).
  - match goal with |- context [snapshot_payouts c h (b_ts b) ?R s] => assert (Er1 : R = rates1_of cm b rated) end.
    { unfold rates1_of. fold h. destruct rated as [l|].
      - match goal with |- context [is_empty_map ?m] => replace (is_empty_map m) with false end.
        + cbn [andb]. rewrite Hrt, lookup_insert. reflexivity.
        + symmetry. rewrite Hrt, lookup_insert. cbn [from_option id]. apply rate_map_of_nonempty.
      - match goal with |- context [is_empty_map ?m] => replace (is_empty_map m) with true end.
        + assert (E202 : (c_V202EnhanceActivation c <=? h) = true) by lia. rewrite E202. cbn [andb].
          unfold last_rated_below. rewrite Hrt. reflexivity.
        + symmetry. rewrite Hrt. unfold ticker in *. rewrite Fr. cbn [from_option id]. apply is_empty_map_empty. }
    rewrite Er1.
    destruct (snapshot_payouts_total c h (b_ts b) (rates1_of cm b rated) s n Hsnap Hcl Hn Hr (Hf _ (or_introl eq_refl)))
      as (s5 & S1 & _ & S3 & S4).
    rewrite S1. cbn [of_res obind]. exists s5, (rates1_of cm b rated). split; [reflexivity|]. split; [exact S3|]. split; [exact S4|].
    intros l ->. reflexivity.
  - exists s, (default ∅ (rates s !! h)). split; [reflexivity|]. split; [rewrite Z.add_0_l in Hr; exact Hr|].
    split; [rewrite app_nil_r; apply incl_refl|]. intros l ->. rewrite Hrt, lookup_insert. reflexivity.
Qed.

Lemma held_credit_of_nonneg rated :
  cache_nonneg mem -> match rated with Some l => assets_wfb l | None => true end = true -> 0 <= held_credit_of c cm mem b rated.
Proof.
  intros Hmem Hsel. unfold held_credit_of. destruct rated as [l|]; [|apply Z.le_refl]. unfold plan_avgs.
  pose proof (get_averages_nonneg cm (c_AveragePeriod c) mem (last_rated_below cm (b_height b))) as Havg0.
  destruct (get_averages _ _ _ _) as [avgs0 mem0]. destruct (Havg0 _ _ Hmem eq_refl) as [Havg _].
  apply holding_credit_nonneg; [apply rate_map_of_nonempty|exact (rate_map_of_nonneg l Hsel)|exact Havg].
Qed.

Lemma holding_phase_total rated r1 s n :
  live_era c h -> rates_with rated s ->
  match rated with Some l => assets_wfb l | None => true end = true ->
  cache_nonneg mem -> (forall l, rated = Some l -> r1 = rate_map_of l) ->
  match rated with Some _ => holding_wf_basic c cm h (holding_window cm h) | None => true end = true ->
  0 <= n -> bal_room s (held_credit_of c cm mem b rated + n) ->
  exists s' mem', holding_phase c cm mem h (match rated with Some _ => true | None => false end) r1 s = Done (s', mem') /\
    bal_room s' n /\ keys s' = keys s /\ cache_nonneg mem'.
Proof.
  intros (_ & L20 & _ & _) Hrt Hsel Hmem Hr1 Hheld Hn Hr. unfold rates_with in Hrt. unfold holding_phase, held_credit_of in *.
  destruct rated as [l|]; [|exists s, mem; rewrite Z.add_0_l in Hr; auto].
  assert (E : ((c_V4OPRUpdate c <=? h) && (h <? c_V20HeightActivation c)) = false) by lia. rewrite E. cbn [of_res obind].
  pose proof (last_rated_below_insert cm s h _ Hrt) as Hl. rewrite Hl. unfold plan_avgs in Hr. fold h in Hr.
  pose proof (get_averages_nonneg cm (c_AveragePeriod c) mem (last_rated_below cm h)) as Havg0.
  destruct (get_averages cm (c_AveragePeriod c) mem (last_rated_below cm h)) as [avgs0 mem0].
  destruct (Havg0 avgs0 mem0 Hmem eq_refl) as [Havg Hmem0]. cbn [fst] in Hr. rewrite (Hr1 l eq_refl).
  destruct (apply_holding_total_outside_bank_era c h (rate_map_of l) avgs0 cm s n) as (s6 & A1 & A2 & A3);
    [left; exact L20|apply rate_map_of_nonempty|exact (rate_map_of_nonneg l Hsel)|exact Havg
    |unfold holding_window; rewrite Hl; exact Hheld|exact Hn|unfold holding_window; rewrite Hl; exact Hr|].
  rewrite A1. cbn [of_res obind]. exists s6, mem0. auto.
Qed.

Lemma tx_phase_total rated s n :
  live_era c h -> rates cm !! h = None -> rates_with rated s ->
  match rated with Some l => assets_wfb l | None => true end = true ->
  cache_nonneg mem -> hist_closed s ->
  (if snap_due h then stakes_fit c h (rates1_of cm b rated) (snap_cur s) (bal s) else true) = true ->
  match rated with Some _ => holding_wf_basic c cm h (holding_window cm h) | None => true end = true ->
  entries_ok c b = true -> 0 <= n ->
  bal_room s ((if snap_due h then snapshot_bank else 0) + (held_credit_of c cm mem b rated + (block_credit c h (entries_of b) + n))) ->
  fresh_for (if snap_due h then [mock_hash h] else []) s ->
  exists s' mem', tx_phase c cm mem b (match rated with Some _ => true | None => false end) s = Done (s', mem') /\
    bal_room s' n /\ cache_nonneg mem' /\
    incl (hist_keys s') (hist_keys s ++ (if snap_due h then [mock_hash h] else []) ++ map e_hash (entries_of b)).
Proof.
  intros Hlive Fr Hrt Hsel Hmem Hcl Hsnap Hheld Hent Hn Hr Hf. unfold tx_phase. cbv zeta. fold h.
  rewrite (proj2 (Z.leb_le _ _) (proj1 Hlive)).
  pose proof (block_credit_nonneg c h (entries_of b)) as HBC. pose proof (held_credit_of_nonneg rated Hmem Hsel) as HHC.
  destruct (snapshot_phase_total rated s (held_credit_of c cm mem b rated + (block_credit c h (entries_of b) + n)) Hlive Fr Hrt Hcl ltac:(sum_nonneg) Hr Hsnap Hf) as (s5 & r1 & ES & Hr5 & Hk5 & Hr1).
  rewrite ES. cbn [obind]. pose proof (snapshot_phase_writes c True _ _ _ _ _ ES) as W5.
  assert (Hrt5 : rates_with rated s5).
  { unfold rates_with in *. rewrite <- Hrt. exact (f_equal (fun t => snd (fst t)) (lwrites_block_tables _ _ _ _ _ W5)). }
  destruct (holding_phase_total rated r1 s5 (block_credit c h (entries_of b) + n) Hlive Hrt5 Hsel Hmem Hr1 Hheld ltac:(sum_nonneg) Hr5) as (s6 & mem6 & EH & Hr6 & Hk6 & Hm6).
  rewrite EH. cbn [obind]. unfold entries_ok, entries_of in *.
  assert (Hcl6 : hist_closed s6) by (eapply hist_closed_keys; [exact Hk6|exact (lwrites_closed _ _ _ _ _ W5 Hcl)]).
  assert (Hk56 : incl (hist_keys s6) (hist_keys s ++ (if snap_due h then [mock_hash h] else []))).
  { replace (hist_keys s6) with (hist_keys s5); [exact Hk5|]. unfold keys in Hk6. congruence. }
  destruct (b_tx b) as [es|].
  - destruct (apply_tx_block_total c h s6 es n Hcl6) as (s7 & T1 & _ & T3);
      [apply Forall_forall; intros e He; rewrite forallb_forall in Hent; apply Hent; exact He|exact Hn|exact Hr6|].
    rewrite T1. cbn [of_res obind]. exists s7, mem6. split; [reflexivity|]. split; [exact T3|]. split; [exact Hm6|].
    intros x Hx. apply (apply_tx_block_hist_keys c h es s6 s7 T1), in_app_or in Hx as [Hx|Hx].
    + apply Hk56, in_app_or in Hx as [Hx|Hx]; rewrite !in_app_iff; auto.
    + rewrite !in_app_iff; auto.
  - cbn [obind]. exists s6, mem6. split; [reflexivity|]. split; [rewrite Z.add_0_l in Hr6; exact Hr6|]. split; [exact Hm6|].
    cbn [map]. rewrite app_nil_r. exact Hk56.
Qed.

Lemma pay_verdict_total ts g s n :
  hist_closed s -> 0 <= n -> bal_room s (winners_credit (winners_of g) + n) ->
  NoDup (winner_hashes (winners_of g)) -> fresh_for (winner_hashes (winners_of g)) s ->
  exists s', match g with Some v => of_res (pay_winners s ts (v_winners v)) | None => Done s end = Done s' /\
    hist_closed s' /\ bal_room s' n /\ hist_keys s' = hist_keys s ++ winner_hashes (winners_of g).
Proof.
  intros Hcl Hn Hr Hnd Hf. destruct g as [v|]; cbn [winners_of] in *.
  - destruct (pay_winners_total ts (v_winners v) s n Hcl Hn Hr Hnd Hf) as (s' & P1 & P2 & P3 & P4). rewrite P1. eauto.
  - exists s. change (winners_credit []) with 0 in Hr. rewrite Z.add_0_l in Hr. cbn [winner_hashes flat_map]. rewrite app_nil_r. auto.
Qed.

Lemma payout_phase_total g gS s n :
  live_era c h -> hist_closed s -> 0 <= n ->
  bal_room s (winners_credit (winners_of g) + (winners_credit (winners_of gS) + ((if snap_due h then dev_credit c h else 0) + n))) ->
  NoDup (winner_hashes (winners_of g) ++ winner_hashes (winners_of gS) ++ (if snap_due h then dev_hashes h else [])) ->
  fresh_for (winner_hashes (winners_of g) ++ winner_hashes (winners_of gS) ++ (if snap_due h then dev_hashes h else [])) s ->
  exists s', payout_phase c b g gS s = Done s' /\ bal_room s' n.
Proof.
  intros (_ & L20 & Ldev & _) Hcl Hn Hr Hnd Hf. unfold payout_phase. cbv zeta. fold h.
  assert (E4 : (h <? c_V20HeightActivation c) = false) by lia. assert (E3 : (c_V20HeightActivation c <=? h) = true) by lia.
  assert (Edev : (c_V20DevRewardsHeightActivation c <=? h) = true) by lia. rewrite E4, E3, Edev. cbn [obind andb]. fold (snap_due h).
  pose proof (winners_credit_nonneg (winners_of gS)) as HWSC.
  assert (HDC : 0 <= if snap_due h then dev_credit c h else 0) by (destruct (snap_due h); [apply dev_credit_nonneg|apply Z.le_refl]).
  destruct (pay_verdict_total (b_ts b) g s (winners_credit (winners_of gS) + ((if snap_due h then dev_credit c h else 0) + n)) Hcl ltac:(sum_nonneg) Hr (nodup_app_l _ _ Hnd) (fresh_for_app_l _ _ _ Hf)) as (s8 & P1 & Hcl8 & Hr8 & Hk8).
  rewrite P1. cbn [obind].
  pose proof (fresh_for_done _ _ _ _ Hnd Hf Hk8) as Hf8. pose proof (nodup_app_r _ _ Hnd) as Hnd8.
  destruct (pay_verdict_total (b_ts b) gS s8 ((if snap_due h then dev_credit c h else 0) + n) Hcl8 ltac:(sum_nonneg) Hr8 (nodup_app_l _ _ Hnd8) (fresh_for_app_l _ _ _ Hf8)) as (s9 & P2 & Hcl9 & Hr9 & Hk9).
  rewrite P2. cbn [obind].
  pose proof (fresh_for_done _ _ _ _ Hnd8 Hf8 Hk9) as Hf9. pose proof (nodup_app_r _ _ Hnd8) as Hnd9. destruct (snap_due h).
  - destruct (developers_payouts_total c h (b_ts b) s9 n Hcl9 Hn Hr9 Hnd9 Hf9) as (s10 & D1 & _ & D3 & _). rewrite D1. cbn [of_res]. eauto.
  - exists s9. split; [reflexivity|]. rewrite Z.add_0_l in Hr9. exact Hr9.
Qed.

Lemma sync_block_total g gS s0 :
  live_era c h -> only_bal cm s0 -> bal_room s0 0 -> nonneg cm ->
  (h = c_V204EnhanceActivation c -> bal_room s0 mint_total) ->
  hist_closed cm -> fresh_at h cm -> cache_nonneg mem ->
  grade_opr c cm b = Done g -> grade_spr c cm b = Done gS -> grade_spr_err c cm b = false ->
  match rated_of c b g gS with Some l => assets_wfb l | None => true end = true ->
  (if snap_due h then stakes_fit c h (rates1_of cm b (rated_of c b g gS)) (snap_cur cm) (bal (adj_of c cm b s0)) else true) = true ->
  match rated_of c b g gS with Some _ => holding_wf_basic c cm h (holding_window cm h) | None => true end = true ->
  entries_ok c b = true ->
  NoDup (coinbase_of b g gS) ->
  (forall x, In x (coinbase_of b g gS) -> ~ In x (hist_keys cm) /\ ~ In x (map e_hash (entries_of b))) ->
  bal_room (adj_of c cm b s0) (credit_of c cm mem b g gS) ->
  exists s' mem', sync_block c cm mem b s0 = Done (s', mem') /\ hist_closed s' /\ bal_room s' 0 /\ cache_nonneg mem' /\
    (forall k, k <> h -> grades s' !! k = grades cm !! k) /\
    (forall r, In r (winners s') -> In r (winners cm) \/ fst (fst (fst (fst r))) = h).
Proof.
  intros Hlive Hob0 Hr00 Hnn Hmint Hcl Hfr Hmem Hg HgS Herr Hsel Hsnap Hheld Hent Hnd Hfresh Hroom.
  (* which grading rows a block writes can be read off any run *)
  enough (G : exists s' mem', sync_block c cm mem b s0 = Done (s', mem') /\ hist_closed s' /\ bal_room s' 0 /\ cache_nonneg mem').
  { destruct G as (s' & mem' & E & G1 & G2 & G3). exists s', mem'. repeat (split; [assumption|]).
    pose proof (bwrites_grades_own _ _ _ _ (sync_block_writes c cm mem b _ _ _ E)) as Hgr. rewrite Hob0 in Hgr. exact Hgr. }
  pose proof Hlive as (Ltx & L20 & Ldev & L202).
  rewrite sync_block_phases. unfold sync_phases. fold h.
  destruct (adjust_phase_total s0 Hnn Hr00 Hmint) as (EA & Hoba & Hrp). rewrite EA. cbn [obind].
  set (sp := adj_of c cm b s0) in *.
  rewrite Hg. cbn [obind]. unfold spr_verdict. fold h.
  rewrite (proj2 (Z.leb_le _ _) L20), HgS. cbn [obind].
  destruct (rate_phase_total g gS sp L20 Herr (only_bal_trans _ _ _ Hob0 Hoba) Hfr Hsel) as (s3 & ER & G1 & G2 & G3 & G4).
  rewrite ER. cbn [obind]. cbv beta iota.
  assert (Hcl3 : hist_closed s3) by (eapply hist_closed_keys; [exact G2|exact Hcl]).
  destruct (match sel_of c b g gS with Some RErr => true | _ => false end).
  { (* the rate selection fails: SyncBlock returns nil here *)
    exists s3, mem. split; [reflexivity|]. split; [exact Hcl3|]. split; [exact (bal_room_eq _ _ _ G1 Hrp)|exact Hmem]. }
  (* the credits, one by one *)
  unfold credit_of in Hroom. fold (held_credit_of c cm mem b (rated_of c b g gS)) in Hroom. fold h in Hroom.
  set (rated := rated_of c b g gS) in *.
  set (SB := if snap_due h then snapshot_bank else 0) in *. set (HC := held_credit_of c cm mem b rated) in *.
  set (BC := block_credit c h (entries_of b)) in *.
  set (WC := winners_credit (winners_of g)) in *. set (WSC := winners_credit (winners_of gS)) in *.
  set (DC := if snap_due h then dev_credit c h else 0) in *.
  assert (Hr3 : bal_room s3 (SB + (HC + (BC + (WC + (WSC + (DC + 0))))))).
  { eapply bal_room_eq; [exact G1|]. eapply bal_room_weaken; [|exact Hroom]. apply Z.eq_le_incl. ring. }
  assert (Hn7 : 0 <= WC + (WSC + (DC + 0))).
  { pose proof (winners_credit_nonneg (winners_of g)) as HWC. pose proof (winners_credit_nonneg (winners_of gS)) as HWSC.
    assert (HDC : 0 <= DC) by (unfold DC; destruct (snap_due h); [apply dev_credit_nonneg|apply Z.le_refl]). sum_nonneg. }
  (* the hashes still to be written *)
  unfold coinbase_of in Hnd, Hfresh. fold h in Hnd, Hfresh.
  set (SL := if snap_due h then [mock_hash h] else []) in *.
  set (PL := winner_hashes (winners_of g) ++ winner_hashes (winners_of gS) ++ (if snap_due h then dev_hashes h else [])) in *.
  assert (Hf3 : fresh_for (SL ++ PL) s3).
  { intros x Hx. replace (hist_keys s3) with (hist_keys cm) by (unfold keys in G2; congruence). exact (proj1 (Hfresh x Hx)). }
  destruct (tx_phase_total rated s3 (WC + (WSC + (DC + 0))) Hlive (proj1 (proj2 Hfr)) G4 Hsel Hmem Hcl3) as (s7 & mem7 & ET & Hr7 & Hm7 & Hk7);
    [rewrite G3, G1; exact Hsnap|exact Hheld|exact Hent|exact Hn7|exact Hr3|exact (fresh_for_app_l _ _ _ Hf3)|].
  rewrite ET. cbn [obind]. cbv beta iota. pose proof (tx_phase_writes c True _ _ _ _ _ _ _ ET) as W7.
  destruct (payout_phase_total g gS s7 0 Hlive (lwrites_closed _ _ _ _ _ W7 Hcl3) (Z.le_refl 0) Hr7 (nodup_app_r _ _ Hnd)) as (s' & EP & Hr').
  { apply (fresh_for_incl _ (SL ++ map e_hash (entries_of b)) s3); [exact (fresh_for_app_r _ _ _ Hf3)|exact Hk7|].
    intros x Hx Hin. apply in_app_or in Hin as [Hin|Hin]; [exact (nodup_app_disjoint _ _ x Hnd Hin Hx)|].
    exact (proj2 (Hfresh x (in_or_app _ _ _ (or_intror Hx))) Hin). }
  rewrite EP. cbn [obind]. pose proof (payout_phase_writes c True _ _ _ _ _ EP) as W'.
  exists s', mem7. split; [reflexivity|]. split; [exact (lwrites_closed _ _ _ _ _ W' (lwrites_closed _ _ _ _ _ W7 Hcl3))|].
  split; [exact Hr'|exact Hm7].
Qed.
End Walk.

Theorem step_block_total c cm mem b :
  hist_closed cm -> bal_room cm 0 -> block_hyps c cm mem b ->
  exists s' mem', step_block c cm mem b = Done (s', mem') /\ hist_closed s' /\ bal_room s' 0 /\ cache_nonneg mem' /\
    (forall k, k <> b_height b -> grades s' !! k = grades cm !! k) /\
    (forall r, In r (winners s') -> In r (winners cm) \/ fst (fst (fst (fst r))) = b_height b).
Proof.
  intros Hcl Hr0 (Hlive & Hmint & Hfr & Hmem & ((g & Hg) & (gS & HgS) & Herr) & Hsel & Hsnap & Hheld & Hent & [Hnd Hfresh] & Hroom).
  (* what an applied block leaves behind does not depend on why it is applied *)
  enough (G : exists s' mem', step_block c cm mem b = Done (s', mem') /\ cache_nonneg mem').
  { destruct G as (s' & mem' & E & Hm). exists s', mem'. split; [exact E|].
    split; [exact (step_block_closed c cm mem b s' mem' Hcl E)|]. split; [exact (step_block_range c cm mem b s' mem' Hr0 E)|].
    split; [exact Hm|exact (step_block_grades_only_own_height c cm mem b s' mem' E)]. }
  assert (Pg : plan_g c cm b = g) by (unfold plan_g; rewrite Hg; reflexivity).
  assert (PgS : plan_gS c cm b = gS) by (unfold plan_gS; rewrite HgS; reflexivity).
  unfold sel_wf, snapshot_ok, held_batches_ok, block_room, plan_rated, mint_room, adjusted in *. rewrite Pg, PgS in *.
  pose proof (bal_room_nonneg cm 0 Hr0) as Hnn.
  (* NullifyBurnAddress, at its activation heights, only lowers balances of the burn address *)
  assert (Hsh : shrunk cm (pending c cm b)).
  { assert (N : forall s, bal_room s 0 -> shrunk s (nullify_burn c cm (b_height b) (b_ts b) s))
      by (intros s Hs; apply nullify_burn_shrinks; [apply Hlive|exact Hnn|exact Hs]).
    unfold pending. destruct (b_height b =? c_V20DevRewardsHeightActivation c); destruct (b_height b =? c_V202EnhanceActivation c);
      [|apply N, Hr0..|apply shrunk_refl].
    eapply shrunk_trans; [apply N, Hr0|]. apply N. eapply shrunk_room; [apply N, Hr0|exact Hr0]. }
  destruct (sync_block_total c cm mem b g gS (pending c cm b) Hlive (proj1 Hsh) (shrunk_room _ _ _ Hsh Hr0) Hnn Hmint Hcl Hfr Hmem
              Hg HgS Herr Hsel Hsnap Hheld Hent Hnd Hfresh Hroom)
    as (s1 & mem1 & HS & _ & _ & Hm1 & _).
  unfold step_block. cbv zeta. destruct Hfr as (_ & _ & Fv & _).
  match goal with |- context [sync_block c cm mem b ?X] => change X with (pending c cm b) end.
  rewrite HS. cbn [obind].
  (* the sync height: pn_sync_version is not touched by SyncBlock *)
  assert (Ev : versions s1 = versions cm).
  { rewrite (bwrites_versions _ _ _ _ (sync_block_writes c cm mem b _ _ _ HS)), (proj1 Hsh). reflexivity. }
  destruct (insert_synced_total s1 (b_height b)) as (s2 & I1); [rewrite Ev; exact Fv|].
  rewrite I1. exists s2, mem1. split; [reflexivity|exact Hm1].
Qed.

(* the hypotheses as one boolean, for computation *)
Definition nonep {A} (o : option A) : bool := match o with None => true | Some _ => false end.
Definition is_done {A} (o : outcome A) : bool := match o with Done _ => true | _ => false end.
Definition live_erab (c : cfg) (h : Z) : bool :=
  (c_TransactionConversionActivation c <=? h) && (c_V20HeightActivation c <=? h) &&
  (c_V20DevRewardsHeightActivation c <=? h) && (c_V202EnhanceActivation c <=? h).
Definition plain_heightb (c : cfg) (h : Z) : bool :=
  negb (h =? c_V20DevRewardsHeightActivation c) && negb (h =? c_V202EnhanceActivation c) &&
  negb (h =? c_V204EnhanceActivation c) && negb (h =? c_V204BurnMintedTokenActivation c).
Definition fresh_atb (h : Z) (cm : db) : bool :=
  nonep (grades cm !! h) && nonep (rates cm !! h) && nonep (versions cm !! h) && winner_rows_fresh h cm.
Definition graders_answerb (c : cfg) (cm : db) (b : block) : bool :=
  is_done (grade_opr c cm b) && is_done (grade_spr c cm b) && negb (grade_spr_err c cm b).
Definition coinbase_freshb (c : cfg) (cm : db) (b : block) : bool :=
  let L := coinbase_of b (plan_g c cm b) (plan_gS c cm b) in
  negb (has_dup L) &&
  forallb (fun x => negb (existsb (Z.eqb x) (hist_keys cm)) && negb (existsb (Z.eqb x) (map e_hash (entries_of b)))) L.
Definition block_hypsb (c : cfg) (cm : db) (mem : avgcache) (b : block) : bool :=
  live_erab c (b_height b) &&
  (if b_height b =? c_V204EnhanceActivation c then bal_roomb (pending c cm b) mint_total else true) &&
  fresh_atb (b_height b) cm && rates_nonnegb (ac_avgs mem) &&
  graders_answerb c cm b && sel_wf c cm b && snapshot_ok c cm b && held_batches_ok c cm b && entries_ok c b &&
  coinbase_freshb c cm b && bal_roomb (adjusted c cm b) (credit_of c cm mem b (plan_g c cm b) (plan_gS c cm b)).

Lemma nonep_spec {A} (o : option A) : nonep o = true -> o = None.
Proof. destruct o; [discriminate|reflexivity]. Qed.
Lemma is_done_spec {A} (o : outcome A) : is_done o = true -> exists a, o = Done a.
Proof. destruct o; try discriminate. eauto. Qed.

Lemma live_erab_spec c h : live_erab c h = true -> live_era c h.
Proof. unfold live_erab, live_era. lia. Qed.

Lemma block_hypsb_spec c cm mem b : block_hypsb c cm mem b = true -> block_hyps c cm mem b.
Proof.
  unfold block_hypsb, block_hyps. rewrite !andb_true_iff.
  intros [[[[[[[[[[Hlive Hmint] Hfresh] Hmem] Hgr] Hsel] Hsnap] Hheld] Hent] Hcoin] Hroom].
  split; [apply live_erab_spec; exact Hlive|].
  split.
  { unfold mint_room. intros Em. apply Z.eqb_eq in Em. rewrite Em in Hmint. apply bal_roomb_spec. exact Hmint. }
  split.
  { unfold fresh_atb in Hfresh. rewrite !andb_true_iff in Hfresh. destruct Hfresh as [[[G R] V] W].
    split; [apply nonep_spec; exact G|]. split; [apply nonep_spec; exact R|]. split; [apply nonep_spec; exact V|exact W]. }
  split; [exact (rates_nonnegb_spec _ Hmem)|].
  split.
  { unfold graders_answerb in Hgr. rewrite !andb_true_iff in Hgr. destruct Hgr as [[O S] E].
    split; [apply is_done_spec; exact O|]. split; [apply is_done_spec; exact S|]. apply negb_true_iff. exact E. }
  split; [exact Hsel|]. split; [exact Hsnap|]. split; [exact Hheld|]. split; [exact Hent|].
  split; [|apply bal_roomb_spec; exact Hroom].
  unfold coinbase_freshb in Hcoin. cbv zeta in Hcoin. apply andb_prop in Hcoin as [N F]. split.
  - apply has_dup_false_nodup. apply negb_true_iff. exact N.
  - intros x Hx. rewrite forallb_forall in F. specialize (F x Hx). apply andb_prop in F as [F1 F2].
    split; intros K; apply existsb_eqb_In in K; [rewrite K in F1|rewrite K in F2]; discriminate.
Qed.

(* If the asset lists of both winning records have distinct names and values that fit a SQL argument, so has whatever
   the rate selection makes of them (it keeps a sub-list of the OPR names, with the OPR value or 0). *)
Lemma assets_wfb_cons n v l :
  assets_wfb ((n, v) :: l) = true <-> ~ In n (map fst l) /\ 0 <= v < two63 /\ assets_wfb l = true.
Proof.
  unfold assets_wfb. cbn [map fst snd has_dup forallb]. rewrite negb_orb, !andb_true_iff, negb_true_iff, <- not_true_iff_false, existsb_eqb_In.
  split; [intros [[H1 H2] [H3 H4]]|intros (H1 & H2 & [H3 H4])]; repeat split; try assumption; lia.
Qed.

Lemma band_filter_wf c h v0 o : forall sp l,
  assets_wfb o = true -> band_filter c h v0 o sp = RSel l ->
  assets_wfb l = true /\ (forall x, In x (map fst l) -> In x (map fst o)).
Proof.
  induction o as [|[on ov] o IH]; intros sp l Ho H; cbn [band_filter] in H.
  - inversion H; subst. split; [reflexivity|intros x []].
  - destruct sp as [|[sn sv] sp]; [inversion H; subst; split; [reflexivity|intros x []]|].
    apply assets_wfb_cons in Ho as (Hn1 & Hov & Ho').
    assert (Cons : forall val l0, 0 <= val < two63 -> band_filter c h v0 o sp = RSel l0 ->
              assets_wfb ((on, val) :: l0) = true /\ (forall x, In x (map fst ((on, val) :: l0)) -> In x (map fst ((on, ov) :: o)))).
    { intros val l0 Hval E. destruct (IH sp l0 Ho' E) as [W W3]. split.
      - apply assets_wfb_cons. split; [intros K; apply Hn1, W3, K|]. split; assumption.
      - intros x [<-|Hx]; [left; reflexivity|right; apply W3; exact Hx]. }
    destruct (Z.eqb_spec on sn) as [->|Hne].
    + destruct (in_band _ ov sv).
      * destruct (band_filter c h v0 o sp) as [l0|] eqn:E; [|discriminate]. inversion H; subst. apply Cons; [exact Hov|reflexivity].
      * destruct (_ && _); [|discriminate]. destruct (band_filter c h v0 o sp) as [l0|] eqn:E; [|discriminate]. inversion H; subst.
        apply Cons; [unfold two63; lia|reflexivity].
    + destruct (IH sp l Ho' H) as [W W3]. split; [exact W|]. intros x Hx. right. apply W3. exact Hx.
Qed.

Lemma select_rates_wf c h o sp l :
  assets_wfb o = true -> assets_wfb sp = true -> select_rates c h o sp = RSel l -> assets_wfb l = true.
Proof.
  intros Ho Hs H. unfold select_rates in H. destruct o as [|o0 o']; destruct sp as [|s0 s''].
  - discriminate.
  - inversion H; subst; exact Hs.
  - inversion H; subst; exact Ho.
  - destruct (Nat.eqb _ _); [|discriminate]. exact (proj1 (band_filter_wf _ _ _ _ _ _ Ho H)).
Qed.

(* the records the graders hand over *)
Definition verdicts_wf (c : cfg) (cm : db) (b : block) : bool :=
  assets_wfb (first_assets (plan_g c cm b)) && assets_wfb (first_assets (plan_gS c cm b)).
Lemma sel_wf_from_verdicts c cm b : verdicts_wf c cm b = true -> sel_wf c cm b = true.
Proof.
  unfold verdicts_wf, sel_wf, plan_rated, rated_of, sel_of. intros H. apply andb_prop in H as [Ho Hs].
  destruct (first_assets (plan_g c cm b)) as [|o0 o] eqn:Eo; destruct (first_assets (plan_gS c cm b)) as [|p0 p] eqn:Ep; try reflexivity;
    (destruct (select_rates c (b_height b) _ _) as [l|] eqn:E; [|reflexivity]; eapply select_rates_wf; [| |exact E]; assumption).
Qed.

Print Assumptions step_block_total.
