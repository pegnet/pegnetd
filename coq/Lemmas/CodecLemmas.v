(* Lemmas/CodecLemmas.v — C20 (a): what the UnmarshalJSON methods of fat2 and ValidData accept is
   canonical ([accepted_is_canonical]), by the length accounting of the struct decoders; before that,
   what Transaction.Validate and ValidData establish.  From RoundTripLemmas.v it takes what the
   parser guarantees of a parsed tree ([parse_json_gp], [gp_wf]) and the strings that need no
   escaping ([clean_str]). *)

From Model Require Import Codec Db.
From Lemmas Require Import JsonLemmas RoundTripLemmas.
From Gen Require Import Consts.
Import ListNotations.
Open Scope list_scope.
Open Scope Z_scope.

Definition sum_transfers (trs : list transfer) : Z := fold_right (fun tr acc => tr_amt tr + acc) 0 trs.

Lemma remaining_after_sum trs : forall rem r,
  remaining_after rem trs = Some r -> r = rem - sum_transfers trs.
Proof.
  induction trs as [|tr trs IH]; intros rem r H; cbn [remaining_after sum_transfers fold_right] in *.
  - injection H as <-. lia.
  - destruct (rem <? tr_amt tr); [discriminate|]. apply IH in H. fold (sum_transfers trs) in *. lia.
Qed.

Lemma remaining_after_each_le trs : forall rem r,
  remaining_after rem trs = Some r -> Forall (fun tr => 0 <= tr_amt tr) trs ->
  Forall (fun tr => tr_amt tr <= rem) trs.
Proof.
  induction trs as [|tr trs IH]; intros rem r H Hpos; [constructor|].
  cbn [remaining_after] in H. destruct (Z.ltb_spec rem (tr_amt tr)); [discriminate|].
  inversion Hpos as [|? ? Hp Hps]; subst. constructor; [assumption|].
  specialize (IH (rem - tr_amt tr) r H Hps).
  eapply Forall_impl; [|exact IH]. cbn. intros. lia.
Qed.

Theorem tx_validate_spec t : tx_validate t = true ->
  tx_addr t <> Fat2CoinbaseAddress /\
  0 < tx_type t < PTickerMax /\
  ( (tx_transfers t <> [] /\ tx_conv t <= 0 /\ sum_transfers (tx_transfers t) = tx_amt t)
    \/ (tx_transfers t = [] /\ tx_conv t <> 0 /\ tx_conv t <> tx_type t /\
        (0 < tx_conv t < PTickerMax \/ tx_amt t = 0)) ).
Proof.
  unfold tx_validate, is_conversion.
  destruct (Z.eqb_spec (tx_addr t) Fat2CoinbaseAddress) as [|Hcb]; [discriminate|].
  destruct ((tx_addr t =? 0) && (tx_amt t =? 0) && (tx_type t =? 0)); [discriminate|].
  destruct (Z.leb_spec (tx_type t) 0) as [|Hty0]; cbn [orb]; [discriminate|].
  destruct (Z.leb_spec PTickerMax (tx_type t)) as [|Hty1]; [discriminate|].
  intros H. split; [exact Hcb|]. split; [lia|]. revert H.
  destruct (tx_transfers t) as [|tr trs] eqn:Htr.
  - destruct (Z.eqb_spec (tx_conv t) 0) as [|Hc0]; [discriminate|].
    cbn [remaining_after]. intros H. right. split; [reflexivity|]. split; [exact Hc0|]. revert H.
    destruct (Z.ltb_spec 0 (tx_conv t)) as [Hc1|Hc1]; cbn [andb].
    + destruct (Z.ltb_spec (tx_conv t) PTickerMax) as [Hc2|Hc2]; cbn [negb andb].
      * destruct (Z.eqb_spec (tx_type t) (tx_conv t)) as [|Hne]; [discriminate|].
        intros _. split; [auto|left; lia].
      * destruct (Z.eqb_spec (tx_amt t) 0) as [Ha|Ha]; cbn [negb]; [|discriminate].
        intros _. split; [lia|right; exact Ha].
    + cbn [negb andb]. destruct (Z.eqb_spec (tx_amt t) 0) as [Ha|Ha]; cbn [negb]; [|discriminate].
      intros _. split; [lia|right; exact Ha].
  - destruct (Z.ltb_spec 0 (tx_conv t)) as [|Hc]; [discriminate|].
    destruct (remaining_after (tx_amt t) (tr :: trs)) as [rem|] eqn:Hrem; [|discriminate].
    cbn [negb andb]. destruct (Z.eqb_spec rem 0) as [Hr|Hr]; cbn [negb]; [|discriminate].
    intros _. apply remaining_after_sum in Hrem. left. split; [discriminate|]. split; lia.
Qed.

Theorem valid_data_spec b : valid_data b = true ->
  b_version b = 1 /\ b_txs b <> [] /\
  Forall (fun t => tx_validate t = true) (b_txs b) /\
  exists a, Forall (fun t => tx_addr t = a) (b_txs b).
Proof.
  unfold valid_data. intros H. apply andb_true_iff in H as [Hv H]. apply Z.eqb_eq in Hv.
  destruct (b_txs b) as [|t0 txs] eqn:E; [discriminate|].
  apply andb_true_iff in H as [H1 H2].
  split; [exact Hv|]. split; [discriminate|]. split.
  - exact (forallb_Forall _ _ _ (fun t H => H) H1).
  - exists (tx_addr t0). exact (forallb_Forall _ _ _ (fun t => proj1 (Z.eqb_eq _ _)) H2).
Qed.

Theorem inputs_within_int64_spec b : inputs_within_int64 b = true ->
  Forall (fun t => tx_amt t <= max_int64) (b_txs b).
Proof.
  unfold inputs_within_int64. apply forallb_Forall. intros t. apply Z.leb_le.
Qed.

Theorem validate_peg_tx_spec b : validate_peg_tx b = true ->
  valid_data b = true /\ Forall (fun t => tx_conv t <> PTickerPEG) (b_txs b).
Proof.
  unfold validate_peg_tx. intros H. apply andb_true_iff in H as [H1 H2]. split; [exact H1|].
  revert H2. apply forallb_Forall. intros t H. apply Z.eqb_neq, negb_true_iff, H.
Qed.

(* Unquoting spends at least two bytes on a code point that comes from an escape or a multi-byte
   sequence, and exactly one on an ASCII byte or an invalid byte (which becomes U+FFFD).  So the
   code points [u] of a raw body [s] are no more than its bytes, and as many only if each comes
   from one byte, by [urel]. *)
Definition urel (cp b : Z) : Prop := (cp = b /\ b < 128) \/ cp = 65533.
Definition uq_ok (u s : bytes) : Prop :=
  (length u <= length s)%nat /\ (length u = length s -> Forall2 urel u s).

Lemma uq_ok_stop s : uq_ok [] s.
Proof. split; [apply Nat.le_0_l|]. destruct s; [constructor|discriminate]. Qed.

Lemma uq_ok_one cp c u s : urel cp c -> uq_ok u s -> uq_ok (cp :: u) (c :: s).
Proof.
  intros R [L F]. unfold uq_ok. cbn [length]. split; [lia|]. intros E. constructor; [exact R|apply F; lia].
Qed.

Lemma uq_ok_many cp u c1 c2 pre s : uq_ok u s -> uq_ok (cp :: u) (c1 :: c2 :: pre ++ s).
Proof. intros [L _]. unfold uq_ok. cbn [length]. rewrite app_length. split; [lia|intros; lia]. Qed.

Lemma unquote_shape : forall s, uq_ok (unquote s) s.
Proof.
  induction s as [[|c r] IH] using tail_ind; [apply uq_ok_stop|]. cbn [unquote].
  destruct (c =? 92) eqn:E92.
  - destruct r as [|e r1]; [apply uq_ok_stop|]. cbv beta iota.
    destruct (e =? 117).
    + destruct r1 as [|h1 [|h2 [|h3 [|h4 r2]]]]; cbv beta iota; try apply uq_ok_stop.
      apply (uq_ok_many _ _ c e [h1; h2; h3; h4]). exact (IH c [e; h1; h2; h3; h4] r2 eq_refl).
    + apply (uq_ok_many _ _ c e []). exact (IH c [e] r1 eq_refl).
  - destruct (c <? 128) eqn:E128.
    + apply uq_ok_one; [left; split; [reflexivity|apply Z.ltb_lt; exact E128]|exact (IH c [] r eq_refl)].
    + (* a byte of a multi-byte sequence: U+FFFD, except for the two sequences that fold to k and s *)
      destruct r as [|c2 r1]; [apply uq_ok_one; [right; reflexivity|apply uq_ok_stop]|]. cbv beta iota.
      destruct ((c =? 197) && (c2 =? 191)); [apply (uq_ok_many _ _ c c2 []); exact (IH c [c2] r1 eq_refl)|].
      destruct ((c =? 226) && (c2 =? 132));
        [|apply uq_ok_one; [right; reflexivity|exact (IH c [] (c2 :: r1) eq_refl)]].
      destruct r1 as [|c3 r2]; cbv beta iota;
        [apply uq_ok_one; [right; reflexivity|exact (IH c [] [c2] eq_refl)]|].
      destruct (c3 =? 170); [apply (uq_ok_many _ _ c c2 [c3]); exact (IH c [c2; c3] r2 eq_refl)|].
      apply uq_ok_one; [right; reflexivity|exact (IH c [] (c2 :: c3 :: r2) eq_refl)].
Qed.

Definition plain_name (n : bytes) : Prop := Forall (fun c => 97 <= c <= 122) n.

Lemma fold_cp_lower_ascii b : b < 128 -> fold_cp b = ascii_lower b.
Proof.
  intros H. unfold fold_cp, ascii_lower.
  destruct ((65 <=? b) && (b <=? 90)); [reflexivity|].
  destruct (Z.eqb_spec b 383); [lia|]. destruct (Z.eqb_spec b 8490); [lia|]. reflexivity.
Qed.

Lemma fold_urel_lower cps : forall raw,
  Forall2 urel cps raw -> plain_name (map fold_cp cps) -> map ascii_lower raw = map fold_cp cps.
Proof.
  induction cps as [|cp cps IH]; intros raw F P; inversion F as [|? b ? raw' R F']; subst; [reflexivity|].
  cbn [map] in *. inversion P as [|? ? Pc Pr]; subst.
  f_equal; [|apply IH; assumption].
  destruct R as [[E Hb]|E]; subst cp.
  - symmetry. apply fold_cp_lower_ascii. exact Hb.
  - exfalso. assert (Hf : fold_cp 65533 = 65533) by reflexivity. rewrite Hf in Pc. lia.
Qed.

Lemma key_is_iff n k : key_is n k = true <-> fold_key k = n.
Proof.
  unfold key_is. split; [apply beq_true_eq|intros <-; apply beq_refl].
Qed.

Lemma key_is_length name raw : plain_name name -> key_is name raw = true ->
  (length name <= length raw)%nat /\ (length name = length raw -> lower_key raw = name).
Proof.
  intros P H. apply key_is_iff in H. unfold fold_key in H.
  destruct (unquote_shape raw) as [L F]. subst name. rewrite map_length in *.
  split; [exact L|]. intros E. unfold lower_key. apply fold_urel_lower; [apply F; exact E|exact P].
Qed.

Definition ascii_letters (k : bytes) : Prop :=
  Forall (fun c => (65 <= c <= 90) \/ (97 <= c <= 122)) k.

Lemma fold_key_letters k : ascii_letters k -> fold_key k = lower_key k.
Proof.
  intros H. unfold fold_key, lower_key.
  rewrite (unquote_plain k) by (eapply Forall_impl; [|exact H]; cbn; lia).
  induction H as [|c k Hc Hk IH]; [reflexivity|]. cbn [map]. f_equal; [|exact IH].
  apply fold_cp_lower_ascii. lia.
Qed.

Lemma lower_plain_letters k n : lower_key k = n -> plain_name n -> ascii_letters k.
Proof.
  intros <- P. unfold lower_key, plain_name in P. rewrite Forall_map in P.
  eapply Forall_impl; [|exact P]. cbn. intros c Hc. unfold ascii_lower in Hc.
  destruct (Z.leb_spec 65 c); destruct (Z.leb_spec c 90); cbn [andb] in Hc; lia.
Qed.

Lemma key_is_of_lower name k : plain_name name -> lower_key k = name -> key_is name k = true.
Proof.
  intros P E. unfold key_is. rewrite (fold_key_letters k (lower_plain_letters k name E P)), E. apply beq_refl.
Qed.

(* Struct decoding is exact.  Every UnmarshalJSON of fat2 compares the length of the compacted object
   with what the members it looked up account for.  In the compact text a member takes its key, its
   value and four more bytes: two quotes, the colon, and the comma or closing brace after it (the
   opening brace is the [1 +] of [plen_obj]); [wsum] adds that up over the members that are there,
   [asum] over the fields the decoder finds.  An object no longer than the decoder accounts for
   consists of these members only, each under an ASCII-case variant of its field name and none
   twice, so the decoder's lookup (last match under case folding) is the plain one. *)
Definition mweight (m : bytes * jv) : nat := (length (fst m) + 4 + plen (snd m))%nat.
Definition wsum (ms : list (bytes * jv)) : nat := list_sum (map mweight ms).
Definition contrib (n : bytes) (ms : list (bytes * jv)) : nat :=
  match jlookup n ms with Some v => (length n + 4 + plen v)%nat | None => 0%nat end.
Definition asum (names : list bytes) (ms : list (bytes * jv)) : nat :=
  list_sum (map (fun n => contrib n ms) names).

Lemma plen_obj ms : plen (JObj ms) = match ms with [] => 2%nat | _ => (1 + wsum ms)%nat end.
Proof.
  unfold plen. rewrite print_obj. cbn [length]. rewrite app_length. cbn [length].
  destruct ms as [|m r]; [reflexivity|].
  pose proof (join_length (map print_m (m :: r)) ltac:(discriminate)) as J. rewrite map_map in J.
  assert (E : map (fun x => (length (print_m x) + 1)%nat) (m :: r) = map mweight (m :: r)).
  { apply map_ext. intros [k v]. unfold print_m, mweight, plen. cbn [fst snd length].
    rewrite app_length. cbn [length]. lia. }
  rewrite E in J. unfold wsum. lia.
Qed.

Lemma plen_str s : plen (JStr s) = (length s + 2)%nat.
Proof. unfold plen. cbn [print length]. rewrite app_length. cbn [length]. lia. Qed.

Lemma contrib_some n ms v : jlookup n ms = Some v -> contrib n ms = (length n + 4 + plen v)%nat.
Proof. unfold contrib. intros ->. reflexivity. Qed.
Lemma contrib_none n ms : jlookup n ms = None -> contrib n ms = 0%nat.
Proof. unfold contrib. intros ->. reflexivity. Qed.

Lemma contrib_cons n k v r :
  contrib n ((k, v) :: r) =
  (contrib n r + (if key_is n k then match jlookup n r with None => length n + 4 + plen v | Some _ => 0 end
                  else 0))%nat.
Proof.
  unfold contrib. cbn [jlookup]. destruct (jlookup n r); [destruct (key_is n k); lia|]. destruct (key_is n k); lia.
Qed.

Lemma asum_names_cons n names ms : asum (n :: names) ms = (contrib n ms + asum names ms)%nat.
Proof. reflexivity. Qed.

Lemma asum_cons names : NoDup names -> forall k v r,
  (~ In (fold_key k) names -> asum names ((k, v) :: r) = asum names r) /\
  (In (fold_key k) names ->
   asum names ((k, v) :: r) =
   (asum names r + match jlookup (fold_key k) r with
                   | Some _ => 0 | None => length (fold_key k) + 4 + plen v end)%nat).
Proof.
  induction 1 as [|n names Hn Hnd IH]; intros k v r.
  - split; [reflexivity|intros []].
  - rewrite !asum_names_cons. rewrite contrib_cons.
    destruct (IH k v r) as [IH1 IH2].
    destruct (key_is n k) eqn:Ek.
    + apply key_is_iff in Ek. subst n. split; [intros C; exfalso; apply C; left; reflexivity|].
      intros _. rewrite (IH1 Hn). destruct (jlookup (fold_key k) r); lia.
    + assert (Hne : fold_key k <> n) by (intros E; apply key_is_iff in E; congruence).
      split.
      * intros C. rewrite IH1; [lia|]. intros I. apply C. right. exact I.
      * intros [E|I]; [congruence|]. rewrite (IH2 I). lia.
Qed.

Lemma jlookup_none n ms : jlookup n ms = None <-> forall m, In m ms -> key_is n (fst m) = false.
Proof.
  induction ms as [|[k v] r IH]; cbn [jlookup]; [split; [intros _ m []|reflexivity]|].
  split.
  - destruct (jlookup n r) eqn:E; [discriminate|]. destruct (key_is n k) eqn:Ek; [discriminate|].
    intros _ m [<-|I]; [exact Ek|]. apply IH; [reflexivity|exact I].
  - intros H. assert (E : jlookup n r = None) by (apply IH; intros m I; apply H; right; exact I).
    rewrite E. pose proof (H (k, v) (or_introl eq_refl)) as Hk. cbn [fst] in Hk. rewrite Hk. reflexivity.
Qed.

Lemma has_key_false n ms : has_key n ms = false <-> forall m, In m ms -> lower_key (fst m) <> n.
Proof.
  unfold has_key. induction ms as [|m r IH]; cbn [existsb]; [split; [intros _ ? []|reflexivity]|].
  rewrite orb_false_iff, IH. split.
  - intros [H1 H2] m' [<-|I]; [apply beq_false_neq; exact H1|apply H2; exact I].
  - intros H. split; [|intros m' I; apply H; right; exact I].
    destruct (beq (lower_key (fst m)) n) eqn:E; [|reflexivity].
    apply beq_true_eq in E. exfalso. apply (H m); [left; reflexivity|exact E].
Qed.

Lemma wsum_cons k v r : wsum ((k, v) :: r) = (length k + 4 + plen v + wsum r)%nat.
Proof. reflexivity. Qed.

Lemma asum_nil names : asum names [] = 0%nat.
Proof. induction names as [|n names IH]; [reflexivity|]. rewrite asum_names_cons, IH. reflexivity. Qed.

Section Accounting.
  Variable names : list bytes.
  Hypothesis names_nodup : NoDup names.
  Hypothesis names_plain : Forall plain_name names.

  Lemma in_names_plain n : In n names -> plain_name n.
  Proof using names_plain. intros I. rewrite Forall_forall in names_plain. apply names_plain. exact I. Qed.

  Lemma asum_wsum ms :
    (asum names ms <= wsum ms)%nat /\ (asum names ms = wsum ms -> canon_members names ms = true).
  Proof using names_nodup names_plain.
    induction ms as [|[k v] r [Lr IH]]; [rewrite asum_nil; split; [apply Nat.le_0_l|reflexivity]|].
    destruct (asum_cons names names_nodup k v r) as [H1 H2]. rewrite wsum_cons.
    destruct (in_dec (list_eq_dec Z.eq_dec) (fold_key k) names) as [I|I]; [|rewrite (H1 I); split; lia].
    rewrite (H2 I). pose proof (in_names_plain _ I) as P.
    destruct (key_is_length _ _ P (proj2 (key_is_iff _ _) eq_refl)) as [L Heq].
    destruct (jlookup (fold_key k) r) eqn:Ej; [split; lia|]. split; [lia|]. intros E.
    specialize (Heq ltac:(lia)).
    cbn [canon_members]. rewrite IH by lia. rewrite andb_true_r. apply andb_true_iff. split.
    - apply existsb_exists. exists (fold_key k). split; [exact I|]. rewrite Heq. apply beq_refl.
    - apply negb_true_iff. apply has_key_false. intros m Im Em.
      rewrite jlookup_none in Ej. specialize (Ej m Im).
      rewrite (key_is_of_lower (fold_key k) (fst m) P) in Ej; [discriminate|].
      rewrite Em. exact Heq.
  Qed.

  Lemma jmember_none n ms : has_key n ms = false -> jmember n ms = None.
  Proof.
    induction ms as [|[k v] r IH]; [reflexivity|]. unfold has_key. cbn [existsb jmember fst].
    intros H. apply orb_false_iff in H as [H1 H2]. rewrite H1. apply IH. exact H2.
  Qed.

  (* a key that is an ASCII-case variant of a field name consists of letters, so folding it is
     lower-casing it *)
  Lemma jlookup_jmember n ms : canon_members names ms = true -> jlookup n ms = jmember n ms.
  Proof using names_plain.
    induction ms as [|[k v] r IH]; [reflexivity|]. cbn [canon_members]. intros H.
    apply andb_true_iff in H as [H H3]. apply andb_true_iff in H as [H1 H2].
    apply negb_true_iff in H2. apply existsb_exists in H1 as (n0 & I0 & E0). apply beq_true_eq in E0.
    pose proof (lower_plain_letters k n0 E0 (in_names_plain _ I0)) as Lk.
    cbn [jlookup jmember]. rewrite (IH H3).
    assert (Ek : key_is n k = beq (lower_key k) n).
    { unfold key_is. rewrite (fold_key_letters k Lk). reflexivity. }
    rewrite Ek. destruct (beq (lower_key k) n) eqn:E.
    - apply beq_true_eq in E. subst n. rewrite (jmember_none _ _ H2). reflexivity.
    - destruct (jmember n r); reflexivity.
  Qed.
End Accounting.

Ltac distinct_names := repeat constructor; cbn [In]; intuition discriminate.
Definition plain_nameb (n : bytes) : bool := forallb (fun c => (97 <=? c) && (c <=? 122)) n.
Lemma plain_nameb_ok n : plain_nameb n = true -> plain_name n.
Proof. apply forallb_Forall. intros c H. apply andb_true_iff in H as [H1 H2]. split; apply Z.leb_le; assumption. Qed.

Definition names_tuple := [k_address; k_amount].
Definition names_input := [k_address; k_amount; k_type].
Definition names_tx := [k_input; k_transfers; k_conversion; k_metadata].
Definition names_batch := [k_version; k_transactions].
Lemma nd_tuple : NoDup names_tuple. Proof. distinct_names. Qed.
Lemma nd_input : NoDup names_input. Proof. distinct_names. Qed.
Lemma nd_tx : NoDup names_tx. Proof. distinct_names. Qed.
Lemma nd_batch : NoDup names_batch. Proof. distinct_names. Qed.
Lemma pl_tuple : Forall plain_name names_tuple. Proof. apply (forallb_Forall _ _ _ plain_nameb_ok). reflexivity. Qed.
Lemma pl_input : Forall plain_name names_input. Proof. apply (forallb_Forall _ _ _ plain_nameb_ok). reflexivity. Qed.
Lemma pl_tx : Forall plain_name names_tx. Proof. apply (forallb_Forall _ _ _ plain_nameb_ok). reflexivity. Qed.
Lemma pl_batch : Forall plain_name names_batch. Proof. apply (forallb_Forall _ _ _ plain_nameb_ok). reflexivity. Qed.

Lemma jlookup_In n ms v : jlookup n ms = Some v -> exists k, In (k, v) ms.
Proof.
  induction ms as [|[k w] r IH]; [discriminate|]. cbn [jlookup].
  destruct (jlookup n r); [intros H; destruct (IH H) as [k' I]; exists k'; right; exact I|].
  destruct (key_is n k); [intros [= <-]; exists k; left; reflexivity|discriminate].
Qed.

Lemma wf_jlookup n ms v : forallb (fun m => wf_jv (snd m)) ms = true -> jlookup n ms = Some v -> wf_jv v = true.
Proof. intros W H. destruct (jlookup_In _ _ _ H) as [k I]. exact (proj1 (forallb_forall _ _) W _ I). Qed.

Lemma canon_number_one raw : canon_number raw = true -> dec_value raw = 1 -> raw = [49].
Proof.
  unfold canon_number, dec_value, all_digits. intros C V. apply andb_true_iff in C as [D C].
  destruct raw as [|c [|c2 r]]; [discriminate| |].
  - cbn [fold_left] in V. f_equal. lia.
  - exfalso. apply negb_true_iff in C. apply Z.eqb_neq in C.
    apply all_digits_cons in D as [Dc D]. apply all_digits_cons in D as [Dc2 Dr].
    apply is_digit_iff in Dc, Dc2. cbn [fold_left] in V.
    pose proof (dec_fold_mono r ((0 * 10 + (c - 48)) * 10 + (c2 - 48)) Dr ltac:(lia)). lia.
Qed.

Lemma decode_u64_inv v n : decode_u64 v = Some n ->
  (v = JNull /\ n = 0) \/
  exists raw, v = JNum raw /\ all_digits raw = true /\ dec_value raw = n /\ n <= max_uint64.
Proof.
  destruct v; try discriminate; cbn [decode_u64].
  - intros [= <-]. left. split; reflexivity.
  - destruct (all_digits raw) eqn:D; [|discriminate].
    destruct (Z.leb_spec (dec_value raw) max_uint64) as [L|]; [|discriminate]. intros [= <-].
    right. exists raw. repeat split; assumption.
Qed.

Lemma decode_u64_bounds v n : decode_u64 v = Some n -> 0 <= n <= max_uint64.
Proof.
  intros D. destruct (decode_u64_inv _ _ D) as [[_ ->]|(raw & _ & A & <- & L)]; [unfold max_uint64; lia|].
  split; [exact (dec_value_nonneg raw A)|exact L].
Qed.

Lemma decode_u64_canon v n : wf_jv v = true -> decode_u64 v = Some n -> canon_amount v = true.
Proof.
  intros W D. destruct (decode_u64_inv _ _ D) as [[-> _]|(raw & -> & A & <- & L)]; [reflexivity|].
  cbn [wf_jv canon_amount] in *. unfold num_ok in W. rewrite A in W. apply andb_true_iff in W as [_ ->].
  apply Z.leb_le. exact L.
Qed.

Lemma decode_u64_one v : wf_jv v = true -> decode_u64 v = Some 1 -> v = JNum [49].
Proof.
  intros W D. pose proof (decode_u64_canon _ _ W D) as C.
  destruct (decode_u64_inv _ _ D) as [[_ [=]]|(raw & -> & _ & V & _)].
  cbn [canon_amount] in C. apply andb_true_iff in C as [C _]. rewrite (canon_number_one raw C V). reflexivity.
Qed.

Lemma decode_addr_canon aot v a : decode_addr aot v = Some a -> canon_address v = true.
Proof. destruct v; try discriminate; reflexivity. Qed.

Lemma ticker_lookup_in tbl x t : ticker_lookup tbl x = Some t -> In (t, x) tbl.
Proof.
  induction tbl as [|[i n] r IH]; [discriminate|]. cbn [ticker_lookup].
  destruct (beq n x) eqn:E; [|intros H; right; apply IH; exact H].
  apply beq_true_eq in E. subst n. intros [= <-]. left. reflexivity.
Qed.

Lemma ticker_table_ok :
  forallb (fun p => beq (ticker_string (fst p)) (snd p) && (0 <? fst p) && (fst p <? PTickerMax)
                    && clean_str (snd p) && (3 <=? length (snd p))%nat) ticker_table = true.
Proof. vm_compute. reflexivity. Qed.

Lemma ticker_lookup_spec x t : ticker_lookup ticker_table x = Some t ->
  x = ticker_string t /\ 0 < t < PTickerMax /\ clean_str x = true /\ (3 <= length x)%nat.
Proof.
  intros H. apply ticker_lookup_in in H. pose proof ticker_table_ok as T.
  rewrite forallb_forall in T. specialize (T _ H). cbn [fst snd] in T.
  apply andb_true_iff in T as [T T5]. apply andb_true_iff in T as [T T4].
  apply andb_true_iff in T as [T T3]. apply andb_true_iff in T as [T1 T2].
  apply beq_true_eq in T1. apply Z.ltb_lt in T2. apply Z.ltb_lt in T3. apply Nat.leb_le in T5.
  repeat split; auto.
Qed.

Lemma pticker_unmarshal_inv data t : pticker_unmarshal data = Some t ->
  exists x, ticker_lookup ticker_table x = Some t /\
    (x = data \/ (exists r, data = 34 :: r) /\ x = trim_quotes data).
Proof.
  unfold pticker_unmarshal. destruct data as [|c p]; [discriminate|].
  destruct (Z.eqb_spec c 34) as [->|N]; (destruct (_ <? 3)%nat; [discriminate|]); intros L;
    (eexists; split; [exact L|]); [right; split; [eexists|]; reflexivity|left; reflexivity].
Qed.

Lemma trim_left_length s : (length (trim_left s) <= length s)%nat.
Proof.
  induction s as [|c r IH]; [cbn; lia|]. cbn [trim_left]. destruct (c =? 34); cbn [length]; lia.
Qed.

Lemma trim_quotes_shorter (r : bytes) : (length (trim_quotes (34%Z :: r)) <= length r)%nat.
Proof.
  unfold trim_quotes. change (trim_left (34%Z :: r)) with (trim_left r).
  rewrite rev_length. pose proof (trim_left_length (rev (trim_left r))) as H1.
  rewrite rev_length in H1. pose proof (trim_left_length r). lia.
Qed.

Lemma urel_clean u : forall raw, Forall2 urel u raw -> clean_str u = true -> u = raw.
Proof.
  induction u as [|c u IH]; intros raw F C; inversion F as [|? b ? raw' R F']; subst; [reflexivity|].
  apply andb_true_iff in C as [Cc Cu]. f_equal; [|apply IH; assumption].
  destruct R as [[E _]|E]; [exact E|]. subst c. discriminate.
Qed.

Lemma decode_quoted_ticker_inv v t : decode_quoted_ticker v = Some t -> exists raw, v = JStr raw /\
  0 < t < PTickerMax /\ (length (ticker_string t) <= length raw)%nat /\
  (length (ticker_string t) = length raw -> raw = ticker_string t) /\
  (raw = ticker_string t -> ticker_lookup ticker_table raw = Some t).
Proof.
  destruct v as [| | | |raw| |]; cbn [decode_quoted_ticker]; try discriminate.
  destruct (unquote raw) as [|c u] eqn:U; [discriminate|]. intros D. exists raw. split; [reflexivity|].
  destruct (unquote_shape raw) as [Lr Fr]. rewrite U in Lr, Fr.
  destruct (pticker_unmarshal_inv _ _ D) as (x & L & [->|[[r [= -> ->]] ->]]);
    destruct (ticker_lookup_spec _ _ L) as (Ex & R & Cl & _); rewrite <- Ex.
  - split; [exact R|]. split; [exact Lr|]. split.
    + intros El. symmetry. apply urel_clean; [apply Fr; exact El|exact Cl].
    + intros Er. rewrite Er. exact L.
  - (* the unquoted text begins with a quote: trimming makes it strictly shorter than raw *)
    pose proof (trim_quotes_shorter r) as S. cbn [length] in Lr.
    split; [exact R|]. split; [lia|]. split; [intros; lia|].
    intros Hr. apply (f_equal (@length Z)) in Hr. lia.
Qed.

Lemma existsb_key_jlookup n r :
  existsb (fun m : bytes * jv => key_is n (fst m)) r = false <-> jlookup n r = None.
Proof.
  rewrite jlookup_none. split.
  - intros H m I. destruct (key_is n (fst m)) eqn:E; [|reflexivity].
    assert (X : existsb (fun m : bytes * jv => key_is n (fst m)) r = true)
      by (apply existsb_exists; exists m; split; assumption). congruence.
  - intros H. destruct (existsb _ r) eqn:E; [|reflexivity].
    apply existsb_exists in E as (m & I & K). rewrite (H m I) in K. discriminate.
Qed.

Lemma decode_type_members_lookup ms : forall t, decode_type_members ms = Some t ->
  match jlookup k_type ms with Some vt => decode_quoted_ticker vt = Some t | None => t = 0 end.
Proof.
  induction ms as [|[k v] r IH]; intros t; cbn [decode_type_members jlookup].
  - intros [= <-]. reflexivity.
  - destruct (decode_type_members r) as [later|]; [|discriminate]. specialize (IH later eq_refl).
    destruct (key_is k_type k) eqn:Ek.
    + destruct (decode_quoted_ticker v) as [t0|] eqn:Dv; [|discriminate].
      destruct (existsb (fun m : bytes * jv => key_is k_type (fst m)) r) eqn:Ex.
      * intros [= <-]. destruct (jlookup k_type r) eqn:J; [exact IH|].
        apply existsb_key_jlookup in J. congruence.
      * intros [= <-]. apply existsb_key_jlookup in Ex. rewrite Ex. exact Dv.
    + intros [= <-]. destruct (jlookup k_type r); exact IH.
Qed.

Lemma trim_left_spec s : exists i, s = repeat 34 i ++ trim_left s.
Proof.
  induction s as [|c r [i IH]]; [exists 0%nat; reflexivity|]. cbn [trim_left].
  destruct (Z.eqb_spec c 34) as [->|N]; [exists (S i); cbn [repeat app]; f_equal; exact IH|exists 0%nat; reflexivity].
Qed.

Lemma rev_repeat34 n : rev (repeat 34 n) = repeat 34 n.
Proof.
  induction n as [|n IH]; [reflexivity|]. cbn [repeat rev]. rewrite IH. symmetry. apply repeat_cons.
Qed.

Lemma nbq_clean_app name : forall x, clean_str name = true ->
  no_bare_quote (name ++ x) = no_bare_quote x.
Proof.
  induction name as [|c name IH]; intros x C; [reflexivity|].
  apply andb_true_iff in C as [Cc Cn]. apply str_char_inv in Cc as (_ & C34 & C92).
  cbn [app no_bare_quote]. rewrite (proj2 (Z.eqb_neq _ _) C34), (proj2 (Z.eqb_neq _ _) C92). apply IH. exact Cn.
Qed.

(* a raw body without bare quote does not begin with a quote, and cannot end in one after a clean name *)
Lemma quoted_trim_is_raw raw name : no_bare_quote raw = true -> clean_str name = true ->
  name <> [] -> trim_quotes (34 :: raw ++ [34]) = name -> raw = name.
Proof.
  intros W C NE T. unfold trim_quotes in T. cbn [trim_left Z.eqb Pos.eqb] in T.
  assert (E : trim_left (raw ++ [34]) = raw ++ [34] \/ raw = []).
  { destruct raw as [|c r]; [right; reflexivity|left]. cbn [no_bare_quote] in W. cbn [app trim_left].
    destruct (c =? 34); [discriminate|reflexivity]. }
  destruct E as [E| ->]; [|cbn in T; congruence].
  rewrite E, rev_app_distr in T. cbn [rev app trim_left Z.eqb Pos.eqb] in T.
  destruct (trim_left_spec (rev raw)) as [j Hj]. apply (f_equal (@rev Z)) in Hj.
  rewrite rev_involutive, rev_app_distr, rev_repeat34, T in Hj. subst raw.
  rewrite (nbq_clean_app name _ C) in W. destruct j; [apply app_nil_r|discriminate].
Qed.

Lemma ticker_head_ok :
  forallb (fun p => match snd p with
                    | c :: _ => negb ((c =? 45) || is_digit c || (c =? 91) || (c =? 123) || (c =? 34) || (c =? 110) || (c =? 116) || (c =? 102))
                    | [] => false end) ticker_table = true.
Proof. vm_compute. reflexivity. Qed.

Lemma ticker_lookup_head x t : ticker_lookup ticker_table x = Some t ->
  exists c r, x = c :: r /\ c <> 45 /\ is_digit c = false /\ c <> 91 /\ c <> 123 /\ c <> 34 /\ c <> 110 /\ c <> 116 /\ c <> 102.
Proof.
  intros H. apply ticker_lookup_in in H. pose proof ticker_head_ok as T.
  rewrite forallb_forall in T. specialize (T _ H). cbn [snd] in T.
  destruct x as [|c r]; [discriminate|]. exists c, r. split; [reflexivity|].
  apply negb_true_iff in T. repeat (apply orb_false_iff in T as [T ?]).
  repeat split; try (apply Z.eqb_neq; assumption); assumption.
Qed.

Lemma raw_ticker_canon v t : wf_jv v = true -> decode_raw_ticker v = Some t ->
  canon_ticker v = true /\ 0 < t < PTickerMax.
Proof.
  unfold decode_raw_ticker. intros W D.
  destruct (pticker_unmarshal_inv _ _ D) as (x & L & [->|[[p P] ->]]).
  - (* the text of a value that is not a string does not begin like a ticker name *)
    exfalso. apply ticker_lookup_head in L as (c & r & P & H45 & Hd & H91 & H123 & H34 & Hn & Ht & Hf).
    destruct v; cbn [print] in P; try (injection P as Pc _; congruence).
    cbn [wf_jv] in W. unfold num_ok in W. rewrite P in W. apply andb_true_iff in W as [W _].
    apply orb_true_iff in W as [W|W]; [apply Z.eqb_eq in W; congruence|congruence].
  - destruct (ticker_lookup_spec _ _ L) as (Ex & R & Cl & L3).
    destruct v; cbn [print] in P; try discriminate.
    + (* a number cannot start with a quote *)
      exfalso. cbn [wf_jv] in W. unfold num_ok in W. rewrite P in W. vm_compute in W. discriminate.
    + cbn [wf_jv print] in *.
      assert (NE : trim_quotes (34 :: raw ++ [34]) <> []) by (intros Z0; rewrite Z0 in L3; cbn in L3; lia).
      rewrite <- (quoted_trim_is_raw raw _ W Cl NE eq_refl) in L.
      split; [|exact R]. cbn [canon_ticker]. rewrite L. reflexivity.
Qed.

Lemma decode_all_Forall2 {A} (f : jv -> option A) items l :
  decode_all f items = Some l <-> Forall2 (fun x a => f x = Some a) items l.
Proof.
  split.
  - revert l. induction items as [|x r IH]; intros l; cbn [decode_all]; [intros [= <-]; constructor|].
    destruct (f x) as [a|] eqn:Fx; [|discriminate]. destruct (decode_all f r) as [ar|]; [|discriminate].
    intros [= <-]. constructor; [exact Fx|apply IH; reflexivity].
  - induction 1 as [|x a r ar Fx _ IH]; cbn [decode_all]; [reflexivity|]. rewrite Fx, IH. reflexivity.
Qed.

Lemma decode_array_inv {A} (f : jv -> option A) v l : decode_array f v = Some l ->
  (v = JNull /\ l = []) \/ exists items, v = JArr items /\ Forall2 (fun x a => f x = Some a) items l.
Proof.
  destruct v; try discriminate; cbn [decode_array].
  - intros [= <-]. left. split; reflexivity.
  - intros H. right. exists items. split; [reflexivity|apply decode_all_Forall2; exact H].
Qed.

Lemma Forall2_forallb {A B} (R : A -> B -> Prop) (P : A -> bool) l l' : Forall2 R l l' ->
  (forall x a, In x l -> In a l' -> R x a -> P x = true) -> forallb P l = true.
Proof.
  induction 1 as [|x a l l' Hxa _ IH]; intros HP; [reflexivity|]. cbn [forallb].
  rewrite (HP x a (or_introl eq_refl) (or_introl eq_refl) Hxa). apply IH.
  intros y b Iy Ib. apply HP; right; assumption.
Qed.

Lemma Forall2_Forall_r {A B} (R : A -> B -> Prop) (Q : B -> Prop) l l' : Forall2 R l l' ->
  (forall x a, R x a -> Q a) -> Forall Q l'.
Proof. induction 1 as [|x a l l' Hxa _ IH]; intros H; constructor; [exact (H x a Hxa)|exact (IH H)]. Qed.

Lemma decode_array_Forall {A} (f : jv -> option A) (Q : A -> Prop) v l :
  (forall x a, f x = Some a -> Q a) -> decode_array f v = Some l -> Forall Q l.
Proof.
  intros H D. destruct (decode_array_inv _ _ _ D) as [[_ ->]|(items & _ & F)]; [constructor|].
  exact (Forall2_Forall_r _ _ _ _ F H).
Qed.

Lemma struct_exact names ms : NoDup names -> Forall plain_name names ->
  (plen (JObj ms) <= 1 + asum names ms)%nat ->
  plen (JObj ms) = (1 + asum names ms)%nat /\ canon_members names ms = true /\
  forall n, jmember n ms = jlookup n ms.
Proof.
  intros ND PL L. destruct (asum_wsum names ND PL ms) as [U C]. rewrite plen_obj in *.
  destruct ms as [|m r]; [rewrite asum_nil in L; lia|].
  assert (A : asum names (m :: r) = wsum (m :: r)) by lia.
  split; [lia|]. split; [exact (C A)|]. intros n. symmetry. exact (jlookup_jmember names PL n _ (C A)).
Qed.

Lemma asum_tx ms : asum names_tx ms =
  (match jlookup k_input ms with Some v => 9 + plen v | None => 0 end +
   match jlookup k_transfers ms with Some v => 13 + plen v | None => 0 end +
   match jlookup k_conversion ms with Some v => 14 + plen v | None => 0 end +
   match jlookup k_metadata ms with Some v => 12 + plen v | None => 0 end)%nat.
Proof.
  unfold names_tx, asum, contrib. cbn [map list_sum fold_right].
  destruct (jlookup k_input ms), (jlookup k_transfers ms), (jlookup k_conversion ms), (jlookup k_metadata ms);
    cbn [k_input k_transfers k_conversion k_metadata length]; lia.
Qed.

Section Levels.
  Variable addr_of_text : bytes -> option Z.

  (* each decoder as a relation: the members it looks up, what they decode to, the length it expects.
     The constants of Model/Codec.v are the lengths of the object without its values:
     22 = |{"address":,"amount":}|, 32 = 22 + |,"type":""|, 23 = |{"input":,"transfers":}|,
     24 = |{"input":,"conversion":}|, 12 = |,"metadata":|, 28 = |{"version":,"transactions":}|. *)
  Lemma decode_tuple_iff j tr : decode_tuple addr_of_text j = Some tr <->
    exists ms va vm, j = JObj ms /\ jlookup k_address ms = Some va /\ jlookup k_amount ms = Some vm /\
      decode_addr addr_of_text va = Some (tr_addr tr) /\ decode_u64 vm = Some (tr_amt tr) /\
      plen j = (22 + plen va + plen vm)%nat.
  Proof.
    split; [|intros (ms & va & vm & -> & E1 & E2 & E3 & E4 & L); unfold decode_tuple;
             rewrite E1, E2, E3, E4, L, Nat.eqb_refl; destruct tr; reflexivity].
    destruct j as [| | | | | |ms]; try discriminate. unfold decode_tuple.
    destruct (jlookup k_address ms) as [va|] eqn:E1; [|discriminate].
    destruct (jlookup k_amount ms) as [vm|] eqn:E2; [|discriminate].
    destruct (decode_addr addr_of_text va) as [a|] eqn:E3; [|discriminate].
    destruct (decode_u64 vm) as [n|] eqn:E4; [|discriminate].
    destruct (Nat.eqb_spec (plen (JObj ms)) (22 + plen va + plen vm)) as [L|]; [|discriminate].
    intros [= <-]. exists ms, va, vm. repeat split; assumption.
  Qed.

  Lemma decode_typed_tuple_iff j a n t : decode_typed_tuple addr_of_text j = Some (a, n, t) <->
    exists ms va vm, j = JObj ms /\ decode_type_members ms = Some t /\
      jlookup k_address ms = Some va /\ jlookup k_amount ms = Some vm /\
      decode_addr addr_of_text va = Some a /\ decode_u64 vm = Some n /\
      plen j = (32 + plen va + plen vm + length (ticker_string t))%nat.
  Proof.
    split; [|intros (ms & va & vm & -> & E0 & E1 & E2 & E3 & E4 & L); unfold decode_typed_tuple;
             rewrite E0, E1, E2, E3, E4, L, Nat.eqb_refl; reflexivity].
    destruct j as [| | | | | |ms]; try discriminate. unfold decode_typed_tuple.
    destruct (decode_type_members ms) as [t'|] eqn:E6; [|discriminate].
    destruct (jlookup k_address ms) as [va|] eqn:E7; [|discriminate].
    destruct (jlookup k_amount ms) as [vm|] eqn:E8; [|discriminate].
    destruct (decode_addr addr_of_text va) as [a'|] eqn:E9; [|discriminate].
    destruct (decode_u64 vm) as [n'|] eqn:E10; [|discriminate].
    destruct (Nat.eqb_spec (plen (JObj ms)) (32 + plen va + plen vm + length (ticker_string t'))) as [L|];
      [|discriminate].
    intros [= <- <- <-]. exists ms, va, vm. repeat split; assumption.
  Qed.

  Lemma decode_transaction_iff j t : decode_transaction addr_of_text j = Some t <->
    exists ms vi, j = JObj ms /\ jlookup k_input ms = Some vi /\
      decode_typed_tuple addr_of_text vi = Some (tx_addr t, tx_amt t, tx_type t) /\
      match jlookup k_transfers ms with
      | Some v => decode_array (decode_tuple addr_of_text) v | None => Some [] end = Some (tx_transfers t) /\
      match jlookup k_conversion ms with
      | Some v => decode_raw_ticker v | None => Some 0 end = Some (tx_conv t) /\
      plen j = (match jlookup k_metadata ms with Some v => 12 + plen v | None => 0 end +
                if is_conversion t then 24 + plen vi + plen_opt (jlookup k_conversion ms)
                else 23 + plen vi + plen_opt (jlookup k_transfers ms))%nat.
  Proof.
    split.
    2:{ intros (ms & vi & -> & E1 & Di & Dt & Dc & L). unfold decode_transaction. rewrite E1, Di, Dt, Dc. cbv zeta.
        rewrite (proj2 (Nat.eqb_eq _ _)); [destruct t; reflexivity|]. rewrite L. unfold is_conversion.
        destruct (match tx_transfers t with [] => _ | _ => _ end); lia. }
    destruct j as [| | | | | |ms]; try discriminate. unfold decode_transaction.
    destruct (jlookup k_input ms) as [vi|] eqn:E11; [|discriminate].
    destruct (decode_typed_tuple addr_of_text vi) as [[[a n] ty]|] eqn:Di; [|discriminate].
    destruct (match jlookup k_transfers ms with Some v => decode_array (decode_tuple addr_of_text) v | None => Some [] end)
      as [trs|] eqn:E12; [|discriminate].
    destruct (match jlookup k_conversion ms with Some v => decode_raw_ticker v | None => Some 0 end)
      as [cv|] eqn:E13; [|discriminate].
    cbv zeta. match goal with |- (if (?x =? ?e)%nat then _ else _) = _ -> _ => destruct (Nat.eqb_spec x e) as [L|] end;
      [|discriminate].
    intros [= <-]. exists ms, vi. unfold is_conversion. cbn [tx_addr tx_amt tx_type tx_transfers tx_conv].
    repeat split; try assumption. rewrite L. destruct (match trs with [] => _ | _ => _ end); lia.
  Qed.

  Lemma decode_batch_j_iff j b : decode_batch_j addr_of_text j = Some b <->
    exists ms vv vt, j = JObj ms /\ jlookup k_version ms = Some vv /\ jlookup k_transactions ms = Some vt /\
      decode_u64 vv = Some (b_version b) /\
      decode_array (decode_transaction addr_of_text) vt = Some (b_txs b) /\
      plen j = (28 + plen vv + plen vt)%nat.
  Proof.
    split; [|intros (ms & vv & vt & -> & E1 & E2 & E3 & E4 & L); unfold decode_batch_j;
             rewrite E1, E2, E3, E4, L, Nat.eqb_refl; destruct b; reflexivity].
    destruct j as [| | | | | |ms]; try discriminate. unfold decode_batch_j.
    destruct (jlookup k_version ms) as [vv|] eqn:E14; [|discriminate].
    destruct (jlookup k_transactions ms) as [vt|] eqn:E15; [|discriminate].
    destruct (decode_u64 vv) as [ver|] eqn:E16; [|discriminate].
    destruct (decode_array (decode_transaction addr_of_text) vt) as [txs|] eqn:E17; [|discriminate].
    destruct (Nat.eqb_spec (plen (JObj ms)) (28 + plen vv + plen vt)) as [L|]; [|discriminate].
    intros [= <-]. exists ms, vv, vt. repeat split; assumption.
  Qed.

  Theorem decode_tuple_canonical j tr : wf_jv j = true ->
    decode_tuple addr_of_text j = Some tr -> canon_tuple j = true.
  Proof.
    intros W D. destruct (proj1 (decode_tuple_iff _ _) D) as (ms & va & vm & -> & Ea & Em & Da & Dn & L).
    cbn [wf_jv] in W.
    destruct (struct_exact names_tuple ms nd_tuple pl_tuple) as (_ & C & J).
    { rewrite L. unfold names_tuple, asum. cbn [map list_sum fold_right].
      rewrite (contrib_some _ _ _ Ea), (contrib_some _ _ _ Em). cbn [k_address k_amount length]. lia. }
    cbn [canon_tuple]. fold names_tuple. rewrite C, !J, Ea, Em. cbn [opt_test andb].
    rewrite (decode_addr_canon _ _ _ Da), (decode_u64_canon _ _ (wf_jlookup _ _ _ W Em) Dn). reflexivity.
  Qed.

  (* [0 < t]: Transaction.Validate demands a known input type *)
  Theorem decode_typed_tuple_canonical j a n t : wf_jv j = true ->
    decode_typed_tuple addr_of_text j = Some (a, n, t) -> 0 < t ->
    canon_input j = true /\ t < PTickerMax /\ 0 <= n <= max_uint64.
  Proof.
    intros W D Ht.
    destruct (proj1 (decode_typed_tuple_iff _ _ _ _) D) as (ms & va & vm & -> & Dt & Ea & Em & Da & Dn & L).
    cbn [wf_jv] in W.
    pose proof (decode_type_members_lookup _ _ Dt) as Lt.
    destruct (jlookup k_type ms) as [vt|] eqn:Et; [|lia].
    destruct (decode_quoted_ticker_inv _ _ Lt) as (raw & -> & Rt & Lr & Eqr & Lk).
    (* the type member is accounted with the length of the name, and its raw text is no shorter *)
    assert (A : asum names_input ms = (29 + plen va + plen vm + (length raw + 2))%nat).
    { unfold names_input, asum. cbn [map list_sum fold_right].
      rewrite (contrib_some _ _ _ Ea), (contrib_some _ _ _ Em), (contrib_some _ _ _ Et), plen_str.
      cbn [k_address k_amount k_type length]. lia. }
    destruct (struct_exact names_input ms nd_input pl_input ltac:(lia)) as (Ep & C & J).
    split; [|split; [lia|exact (decode_u64_bounds _ _ Dn)]].
    cbn [canon_input]. fold names_input. rewrite C, !J, Ea, Em, Et. cbn [opt_test andb].
    rewrite (decode_addr_canon _ _ _ Da), (decode_u64_canon _ _ (wf_jlookup _ _ _ W Em) Dn).
    cbn [canon_ticker andb]. rewrite (Lk (Eqr ltac:(lia))). reflexivity.
  Qed.

  Theorem decode_transaction_canonical j t : wf_jv j = true ->
    decode_transaction addr_of_text j = Some t -> tx_validate t = true -> canon_tx j = true.
  Proof.
    intros W D V. destruct (proj1 (decode_transaction_iff _ _) D) as (ms & vi & -> & Ei & Di & Dt & Dc & L).
    cbn [wf_jv] in W.
    destruct (tx_validate_spec t V) as (_ & Hty & Hv).
    destruct (decode_typed_tuple_canonical vi _ _ _ (wf_jlookup _ _ _ W Ei) Di (proj1 Hty)) as [Ci _].
    unfold is_conversion in L. destruct Hv as [(N & Hc & _)|(E & Hc & _)].
    - (* transfers: a conversion member would decode to a positive ticker *)
      destruct (tx_transfers t) as [|tr0 trs0]; [congruence|].
      destruct (jlookup k_transfers ms) as [vt|] eqn:Et; [|discriminate].
      destruct (jlookup k_conversion ms) as [vc|] eqn:Ec;
        [destruct (raw_ticker_canon vc _ (wf_jlookup _ _ _ W Ec) Dc) as [_ Rc]; lia|].
      cbn [plen_opt] in L.
      destruct (struct_exact names_tx ms nd_tx pl_tx) as (_ & C & J); [rewrite asum_tx, Ei, Et, Ec; lia|].
      pose proof (wf_jlookup _ _ _ W Et) as Wt.
      destruct (decode_array_inv _ _ _ Dt) as [[_ [=]]|(items & -> & F)]. cbn [wf_jv] in Wt.
      pose proof (Forall2_forallb _ canon_tuple _ _ F
                    (fun x a I _ => decode_tuple_canonical x a (proj1 (forallb_forall _ _) Wt x I))) as Ca.
      destruct items as [|x xs]; [inversion F|].
      cbn [canon_tx]. fold names_tx. rewrite C, !J, Ei, Et, Ec. cbn [opt_test andb]. rewrite Ci, Ca. reflexivity.
    - (* conversion: the member is there and is a ticker name, which leaves no room for transfers *)
      rewrite E in L.
      destruct (jlookup k_conversion ms) as [vc|] eqn:Ec; [|injection Dc as Dc; congruence].
      destruct (raw_ticker_canon vc _ (wf_jlookup _ _ _ W Ec) Dc) as [Cc Rc].
      destruct (Z.ltb_spec 0 (tx_conv t)); [|lia]. destruct (Z.ltb_spec (tx_conv t) PTickerMax); [|lia].
      cbn [andb plen_opt] in L.
      destruct (struct_exact names_tx ms nd_tx pl_tx) as (Ep & C & J); [rewrite asum_tx, Ei, Ec; lia|].
      rewrite asum_tx, Ei, Ec in Ep. destruct (jlookup k_transfers ms) as [vt|] eqn:Et; [lia|].
      cbn [canon_tx]. fold names_tx. rewrite C, !J, Ei, Et, Ec. cbn [opt_test andb]. rewrite Ci, Cc. reflexivity.
  Qed.

  Theorem decode_batch_canonical j b : wf_jv j = true ->
    decode_batch_j addr_of_text j = Some b -> valid_data b = true -> canon_batch j = true.
  Proof.
    intros W D V. destruct (proj1 (decode_batch_j_iff _ _) D) as (ms & vv & vt & -> & Ev & Et & Dv & Dt & L).
    cbn [wf_jv] in W.
    destruct (valid_data_spec b V) as (Hver & Hne & Hval & _). rewrite Hver in Dv.
    destruct (struct_exact names_batch ms nd_batch pl_batch) as (_ & C & J).
    { rewrite L. unfold names_batch, asum. cbn [map list_sum fold_right].
      rewrite (contrib_some _ _ _ Ev), (contrib_some _ _ _ Et). cbn [k_version k_transactions length]. lia. }
    pose proof (decode_u64_one vv (wf_jlookup _ _ _ W Ev) Dv) as ->.
    pose proof (wf_jlookup _ _ _ W Et) as Wt.
    cbn [canon_batch]. fold names_batch. rewrite C, !J, Ev, Et. cbn [andb].
    destruct (decode_array_inv _ _ _ Dt) as [[_ E]|(items & -> & F)]; [congruence|]. cbn [wf_jv] in Wt.
    destruct items as [|x xs]; [inversion F; congruence|].
    apply (Forall2_forallb _ canon_tx _ _ F). intros y t Iy It Dy.
    exact (decode_transaction_canonical y t (proj1 (forallb_forall _ _) Wt y Iy) Dy
             (proj1 (Forall_forall _ _) Hval t It)).
  Qed.
End Levels.

Theorem parse_json_wf s j : parse_json s = Some j -> wf_jv j = true.
Proof. intros H. exact (gp_wf j (parse_json_gp s j H)). Qed.

(* C20 (a), for ALL byte strings: what UnmarshalJSON + ValidData accept is canonical *)
Theorem accepted_is_canonical addr_of_text bytes b :
  decode_batch addr_of_text bytes = Some b -> valid_data b = true -> canonical_bytes bytes = true.
Proof.
  unfold decode_batch, canonical_bytes. destruct (parse_json bytes) as [j|] eqn:P; [|discriminate].
  apply decode_batch_canonical. exact (parse_json_wf _ _ P).
Qed.
