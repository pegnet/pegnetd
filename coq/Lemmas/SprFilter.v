(* Lemmas/SprFilter.v — C11, the staking side: "staking records not signed by the key of one of the top PEG
   holders pay nothing".  The model mirrors node/spr.go GradeS (an entry is handed to the grader only when it has
   at least two ExtIDs and ExtIDs[1] is the address of one of the top 100 PEG holders of the committed database)
   and pegnet.IsIncludedTopPEGAddress.  [spr_incl] is the list of indices GradeS hands to the grader, as a
   function; [grade_spr] / [grade_spr_err] are a [find] keyed by (spr_version, spr_incl); a verdict that pays is
   the grader's verdict on exactly those entries; a SPR verdict without winners leaves no trace in the block. *)
From Model Require Import Block.
From Lemmas Require Import DbLemmas BlockLemmas PayoutLemmas HoldingLemmas NoWinners.
From Gen Require Import Consts.
From Coq Require Import Lia ZifyBool Sorting.Sorted Permutation.
Open Scope Z_scope.

(* whether GradeS hands the entry to the grader *)
Definition spr_keep (top : list addr) (e : spr_entry) : bool :=
  (2 <=? se_nexts e) && match se_staker e with Some a => existsb (Z.eqb a) top | None => false end.

(* exactly the fold written inline in grade_spr / grade_spr_err *)
Definition spr_incl (cm : db) (si : spr_in) : list Z :=
  let top := top100 cm in
  snd (fold_left (fun acc e =>
         let '(i, l) := acc in
         (i + 1, if (2 <=? se_nexts e) &&
                    match se_staker e with Some a => existsb (Z.eqb a) top | None => false end
                 then l ++ [i] else l)) (si_entries si) (0, [])).

Lemma grade_spr_unfold c cm b :
  grade_spr c cm b =
  match b_spr b with
  | None => Done None
  | Some si =>
    match find (fun a => (fst (fst a) =? spr_version c (b_height b)) && list_Z_eqb (snd (fst a)) (spr_incl cm si)) (si_alts si) with
    | None => OracleMiss 2
    | Some (_, None) => Done None
    | Some (_, Some v) => Done (Some v)
    end
  end.
Proof. reflexivity. Qed.

Lemma grade_spr_err_unfold c cm b :
  grade_spr_err c cm b =
  match b_spr b with
  | None => false
  | Some si =>
    match find (fun a => (fst (fst a) =? spr_version c (b_height b)) && list_Z_eqb (snd (fst a)) (spr_incl cm si)) (si_alts si) with
    | Some (_, None) => true
    | _ => false
    end
  end.
Proof. reflexivity. Qed.

Lemma spr_incl_fold top es : forall i l,
  fold_left (fun acc e =>
         let '(i, l) := acc in
         (i + 1, if (2 <=? se_nexts e) &&
                    match se_staker e with Some a => existsb (Z.eqb a) top | None => false end
                 then l ++ [i] else l)) es (i, l)
  = (i + Z.of_nat (length es), l ++ map fst (filter (fun p => spr_keep top (snd p)) (index_from i es))).
Proof.
  induction es as [|e es IH]; intros i l; cbn [fold_left length index_from filter snd].
  - cbn [map]. rewrite app_nil_r. f_equal. lia.
  - rewrite IH. unfold spr_keep at 2.
    destruct ((2 <=? se_nexts e) && _); cbn [map fst]; rewrite <- ?app_assoc; cbn [app]; f_equal; lia.
Qed.

Lemma spr_incl_filter cm si :
  spr_incl cm si = map fst (filter (fun p => spr_keep (top100 cm) (snd p)) (index_from 0 (si_entries si))).
Proof. unfold spr_incl. cbv zeta. rewrite spr_incl_fold. reflexivity. Qed.

Lemma spr_keep_spec top e :
  spr_keep top e = true <-> 2 <= se_nexts e /\ exists a, se_staker e = Some a /\ In a top.
Proof.
  unfold spr_keep. rewrite andb_true_iff, Z.leb_le. destruct (se_staker e) as [a|].
  - rewrite existsb_eqb_In. split.
    + intros (H1 & H2). split; [exact H1|]. exists a. auto.
    + intros (H1 & a' & E & H2). inversion E; subst. auto.
  - split; [intros (_ & H); discriminate|intros (_ & a & E & _); discriminate].
Qed.

(* an index is handed to the grader iff the entry at that place has at least two ExtIDs and names, as its
   staker, one of the top 100 PEG holders of the committed database *)
Theorem spr_incl_spec cm si i :
  In i (spr_incl cm si) <->
  exists e, nth_error (si_entries si) (Z.to_nat i) = Some e /\ 0 <= i /\ 2 <= se_nexts e /\
            exists a, se_staker e = Some a /\ In a (top100 cm).
Proof.
  rewrite spr_incl_filter, in_map_iff. split.
  - intros ([j e] & <- & H). apply filter_In in H as [Hin K]. apply in_index_from in Hin as [Hle Hn].
    rewrite Z.sub_0_r in Hn. apply spr_keep_spec in K. exists e. auto.
  - intros (e & Hn & Hi & K). exists (i, e). split; [reflexivity|]. apply filter_In. split.
    + apply in_index_from. rewrite Z.sub_0_r. auto.
    + apply spr_keep_spec. exact K.
Qed.
Print Assumptions spr_incl_spec.

Theorem spr_incl_sorted cm si : StronglySorted Z.lt (spr_incl cm si).
Proof. rewrite spr_incl_filter. apply strongly_sorted_map_filter. rewrite index_from_fst. apply zrange_sorted. Qed.
Print Assumptions spr_incl_sorted.

Theorem spr_incl_nodup cm si : List.NoDup (spr_incl cm si).
Proof. apply strongly_sorted_lt_nodup, spr_incl_sorted. Qed.
Print Assumptions spr_incl_nodup.

Theorem spr_incl_range cm si i : In i (spr_incl cm si) -> 0 <= i < Z.of_nat (length (si_entries si)).
Proof.
  intros H. apply spr_incl_spec in H as (e & Hn & Hi & _). split; [exact Hi|].
  assert (Hl : (Z.to_nat i < length (si_entries si))%nat) by (apply nth_error_Some; congruence). lia.
Qed.
Print Assumptions spr_incl_range.

Lemma peg_holders_In cm a v : In (a, v) (peg_holders cm) <-> bal cm !! ((a, PTickerPEG) : addr * ticker) = Some v /\ 0 < v.
Proof.
  unfold peg_holders. rewrite <- elem_of_list_In, elem_of_list_omap. split.
  - intros ([[a' t] v'] & Hin & Hf). apply elem_of_map_to_list in Hin.
    destruct ((t =? PTickerPEG) && (0 <? v')) eqn:E; [|discriminate]. inversion Hf; subst.
    apply andb_true_iff in E as (E1 & E2). apply Z.eqb_eq in E1. subst t. split; [exact Hin|lia].
  - intros (H1 & H2). exists ((a, PTickerPEG), v). split; [apply elem_of_map_to_list; exact H1|].
    rewrite Z.eqb_refl. replace (0 <? v) with true by lia. reflexivity.
Qed.

Lemma peg_holders_bal cm a v : In (a, v) (peg_holders cm) -> get_bal (bal cm) a PTickerPEG = v /\ 0 < v.
Proof. intros H. apply peg_holders_In in H as (H1 & H2). split; [exact (f_equal (default 0) H1)|exact H2]. Qed.

Lemma default_pos (o : option Z) : 0 < default 0 o -> o = Some (default 0 o).
Proof. destruct o; cbn; [reflexivity|lia]. Qed.
Lemma peg_holders_of_bal cm a : 0 < get_bal (bal cm) a PTickerPEG -> In (a, get_bal (bal cm) a PTickerPEG) (peg_holders cm).
Proof. intros H. apply peg_holders_In. split; [exact (default_pos _ H)|exact H]. Qed.

(* each address at most once: pn_addresses has one row per address *)
Lemma peg_pick_nodup (l : list (addr * ticker * Z)) :
  base.NoDup l ->
  base.NoDup (omap (fun kv : addr * ticker * Z => let '((a, t), v) := kv in if (t =? PTickerPEG) && (0 <? v) then Some (a, v) else None) l).
Proof.
  induction 1 as [|[[a t] v] l Hni Hn IH]; [constructor|].
  cbn [omap list_omap]. destruct ((t =? PTickerPEG) && (0 <? v)) eqn:E; [|exact IH].
  constructor; [|exact IH]. intros Hin. apply elem_of_list_omap in Hin as ([[a' t'] v'] & Hin & Hf).
  destruct ((t' =? PTickerPEG) && (0 <? v')) eqn:E'; [|discriminate]. inversion Hf; subst.
  apply andb_true_iff in E as (E1 & _). apply andb_true_iff in E' as (E1' & _).
  apply Z.eqb_eq in E1, E1'. subst. contradiction.
Qed.
Lemma peg_holders_nodup cm : List.NoDup (map fst (peg_holders cm)).
Proof.
  apply NoDup_ListNoDup, (NoDup_fmap_fst (peg_holders cm)).
  - intros a v v' H1 H2. apply elem_of_list_In, peg_holders_In in H1 as (H1 & _).
    apply elem_of_list_In, peg_holders_In in H2 as (H2 & _). congruence.
  - unfold peg_holders. apply peg_pick_nodup, NoDup_map_to_list.
Qed.

Lemma holder_before_iff x y : holder_before x y = true <-> snd y < snd x \/ (snd x = snd y /\ fst x < fst y).
Proof. unfold holder_before. lia. Qed.
Lemma holder_before_irrefl x : holder_before x x = false.
Proof. unfold holder_before. lia. Qed.
Lemma holder_before_trans x y z : holder_before x y = true -> holder_before y z = true -> holder_before x z = true.
Proof. rewrite !holder_before_iff. lia. Qed.
Lemma holder_before_asym x y : holder_before x y = true -> holder_before y x = true -> False.
Proof. rewrite !holder_before_iff. lia. Qed.
Lemma holder_before_total x y : holder_before x y = false -> le_of holder_before y x.
Proof.
  destruct x as [a v], y as [a' v']. unfold le_of, holder_before. cbn [fst snd]. intros H.
  destruct (Z.eq_dec a a'), (Z.eq_dec v v'); [right; congruence|left; lia..].
Qed.
Lemma holder_le_bal x y : le_of holder_before x y -> snd x >= snd y.
Proof. intros [H| ->]; [apply holder_before_iff in H|]; lia. Qed.

Definition sorted_holders (cm : db) : list (addr * Z) := fold_right insert_holder [] (peg_holders cm).
Lemma sorted_holders_perm cm : Permutation (peg_holders cm) (sorted_holders cm).
Proof. exact (isort_perm holder_before _). Qed.
Lemma sorted_holders_sorted cm : StronglySorted (le_of holder_before) (sorted_holders cm).
Proof. exact (isort_sorted holder_before holder_before_trans holder_before_total _). Qed.
Lemma strongly_sorted_app {A} (R : A -> A -> Prop) l1 : forall l2,
  StronglySorted R (l1 ++ l2) -> forall x y, In x l1 -> In y l2 -> R x y.
Proof.
  induction l1 as [|z l1 IH]; intros l2 Hs x y Hx Hy; [destruct Hx|].
  cbn [app] in Hs. inversion Hs as [|z' l' Hs' Hf]; subst. destruct Hx as [<-|Hx].
  - rewrite Forall_forall in Hf. apply Hf, in_or_app. right. exact Hy.
  - eapply IH; eassumption.
Qed.

Lemma top100_unfold cm : top100 cm = map fst (firstn 100 (sorted_holders cm)).
Proof. reflexivity. Qed.

Lemma sorted_holders_In cm a v : In (a, v) (sorted_holders cm) <-> In (a, v) (peg_holders cm).
Proof. apply (isort_in holder_before). Qed.
Lemma sorted_holders_nodup cm : List.NoDup (map fst (sorted_holders cm)).
Proof.
  eapply Permutation_NoDup; [apply Permutation_map, sorted_holders_perm|]. apply peg_holders_nodup.
Qed.

Lemma in_firstn {A} n (l : list A) x : In x (firstn n l) -> In x l.
Proof. intros H. rewrite <- (firstn_skipn n l). apply in_or_app. left. exact H. Qed.

Lemma top100_In cm a :
  In a (top100 cm) <-> In (a, get_bal (bal cm) a PTickerPEG) (firstn 100 (sorted_holders cm)).
Proof.
  rewrite top100_unfold, in_map_iff. split.
  - intros ([a' v] & E & Hin). cbn in E. subst a'.
    pose proof (in_firstn _ _ _ Hin) as Hs. apply sorted_holders_In, peg_holders_bal in Hs as (-> & _). exact Hin.
  - intros H. eexists. split; [|exact H]. reflexivity.
Qed.

Lemma top100_rest cm a :
  0 < get_bal (bal cm) a PTickerPEG -> ~ In a (top100 cm) ->
  In (a, get_bal (bal cm) a PTickerPEG) (skipn 100 (sorted_holders cm)).
Proof.
  intros Hpos Hni. rewrite top100_In in Hni.
  assert (Hs : In (a, get_bal (bal cm) a PTickerPEG) (sorted_holders cm)) by apply sorted_holders_In, peg_holders_of_bal, Hpos.
  rewrite <- (firstn_skipn 100 (sorted_holders cm)) in Hs. apply in_app_or in Hs as [Hs|Hs]; [contradiction|exact Hs].
Qed.

Lemma top100_before_rest cm a' x :
  In a' (top100 cm) -> In x (skipn 100 (sorted_holders cm)) -> le_of holder_before (a', get_bal (bal cm) a' PTickerPEG) x.
Proof.
  intros Ha' Hx. apply top100_In in Ha'. pose proof (sorted_holders_sorted cm) as Hsorted.
  rewrite <- (firstn_skipn 100 (sorted_holders cm)) in Hsorted. eapply strongly_sorted_app; eassumption.
Qed.

Theorem top100_spec cm :
  (length (top100 cm) <= 100)%nat /\
  List.NoDup (top100 cm) /\
  (forall a, In a (top100 cm) -> 0 < get_bal (bal cm) a PTickerPEG) /\
  (forall a, 0 < get_bal (bal cm) a PTickerPEG -> ~ In a (top100 cm) ->
     length (top100 cm) = 100%nat /\
     forall a', In a' (top100 cm) -> get_bal (bal cm) a' PTickerPEG >= get_bal (bal cm) a PTickerPEG).
Proof.
  split; [|split; [|split]].
  - rewrite top100_unfold, map_length. apply firstn_le_length.
  - rewrite top100_unfold. pose proof (sorted_holders_nodup cm) as Hn.
    rewrite <- (firstn_skipn 100 (sorted_holders cm)), map_app in Hn. eapply nodup_app_l. exact Hn.
  - intros a Ha. apply top100_In, in_firstn, sorted_holders_In, peg_holders_bal in Ha as (_ & Ha). exact Ha.
  - intros a Hpos Hni. pose proof (top100_rest cm a Hpos Hni) as Hs. split.
    + rewrite top100_unfold, map_length, firstn_length.
      destruct (le_lt_dec (length (sorted_holders cm)) 100) as [Hle|Hlt]; [|lia].
      rewrite skipn_all2 in Hs by exact Hle. destruct Hs.
    + intros a' Ha'. exact (holder_le_bal _ _ (top100_before_rest cm a' _ Ha' Hs)).
Qed.
Print Assumptions top100_spec.

(* the tie at the last place goes to the smaller address (the model's stand-in for SQLite's row order) *)
Theorem top100_tie_break cm a a' :
  0 < get_bal (bal cm) a PTickerPEG -> ~ In a (top100 cm) -> In a' (top100 cm) ->
  get_bal (bal cm) a' PTickerPEG > get_bal (bal cm) a PTickerPEG \/
  (get_bal (bal cm) a' PTickerPEG = get_bal (bal cm) a PTickerPEG /\ a' < a).
Proof.
  intros Hpos Hni Ha'. destruct (top100_before_rest cm a' _ Ha' (top100_rest cm a Hpos Hni)) as [H|H].
  - apply holder_before_iff in H. cbn [fst snd] in H. lia.
  - inversion H; subst. contradiction.
Qed.
Print Assumptions top100_tie_break.

Corollary top100_all_when_few cm a :
  (length (top100 cm) < 100)%nat -> (In a (top100 cm) <-> 0 < get_bal (bal cm) a PTickerPEG).
Proof.
  intros Hl. split; [apply top100_spec|]. intros Hpos.
  destruct (in_dec Z.eq_dec a (top100 cm)) as [Hin|Hni]; [exact Hin|].
  destruct (proj2 (proj2 (proj2 (top100_spec cm))) a Hpos Hni) as (E & _). lia.
Qed.

Lemma list_Z_eqb_eq a : forall b, list_Z_eqb a b = true -> a = b.
Proof.
  induction a as [|x a IH]; intros [|y b] H; cbn [list_Z_eqb] in H; try discriminate; [reflexivity|].
  apply andb_true_iff in H as (H1 & H2). apply Z.eqb_eq in H1. apply IH in H2. congruence.
Qed.

Theorem spr_incl_excludes cm si i e :
  0 <= i -> nth_error (si_entries si) (Z.to_nat i) = Some e ->
  (forall a, se_staker e = Some a -> ~ In a (top100 cm)) ->
  ~ In i (spr_incl cm si).
Proof.
  intros Hi Hn Hex Hin. apply spr_incl_spec in Hin as (e' & Hn' & _ & _ & a & Hs & Ha).
  rewrite Hn in Hn'. inversion Hn'; subst e'. exact (Hex a Hs Ha).
Qed.
Print Assumptions spr_incl_excludes.

(* no entry names a top holder: the grader is handed nothing *)
Theorem spr_incl_none cm si :
  (forall e a, In e (si_entries si) -> se_staker e = Some a -> ~ In a (top100 cm)) -> spr_incl cm si = [].
Proof.
  intros H. destruct (spr_incl cm si) as [|i l] eqn:E; [reflexivity|exfalso].
  assert (Hin : In i (spr_incl cm si)) by (rewrite E; left; reflexivity).
  apply spr_incl_spec in Hin as (e & Hn & _ & _ & a & Hs & Ha). apply nth_error_In in Hn. exact (H e a Hn Hs Ha).
Qed.
Print Assumptions spr_incl_none.

(* a verdict that pays is the grader's verdict on exactly the entries the filter lets through *)
Theorem grade_spr_uses_filtered_entries c cm b v :
  grade_spr c cm b = Done (Some v) ->
  exists si, b_spr b = Some si /\
    find (fun a => (fst (fst a) =? spr_version c (b_height b)) && list_Z_eqb (snd (fst a)) (spr_incl cm si)) (si_alts si)
      = Some (spr_version c (b_height b), spr_incl cm si, Some v) /\
    In (spr_version c (b_height b), spr_incl cm si, Some v) (si_alts si) /\
    (forall i e, 0 <= i -> nth_error (si_entries si) (Z.to_nat i) = Some e ->
       (forall a, se_staker e = Some a -> ~ In a (top100 cm)) -> ~ In i (spr_incl cm si)).
Proof.
  rewrite grade_spr_unfold. intros H. destruct (b_spr b) as [si|]; [|discriminate]. exists si. split; [reflexivity|].
  destruct (find _ (si_alts si)) as [[[k l] [v0|]]|] eqn:E; try discriminate. inversion H; subst v0.
  pose proof (find_some _ _ E) as (Hin & Hk). cbn [fst snd] in Hk. apply andb_true_iff in Hk as (Hk1 & Hk2).
  apply Z.eqb_eq in Hk1. apply list_Z_eqb_eq in Hk2. subst k l.
  split; [reflexivity|]. split; [exact Hin|]. intros i e. apply spr_incl_excludes.
Qed.
Print Assumptions grade_spr_uses_filtered_entries.

Definition without_spr (b : block) : block :=
  {| b_height := b_height b; b_ts := b_ts b; b_opr := b_opr b; b_spr := None; b_tx := b_tx b; b_factoid := b_factoid b |}.

(* SyncBlock looks at the SPR entries of a block in two places: where the rate rows are chosen
   and where the stakers are paid; the other phases are the same text for both blocks *)
Lemma sync_block_without_spr c cm mem b s gS :
  spr_verdict c cm b = Done gS ->
  (forall g s0, rate_phase c cm b g gS s0 = rate_phase c cm (without_spr b) g None s0) ->
  (forall g s0, payout_phase c b g gS s0 = payout_phase c (without_spr b) g None s0) ->
  sync_block c cm mem b s = sync_block c cm mem (without_spr b) s.
Proof.
  intros Hv Hr Hp. rewrite !sync_block_phases. unfold sync_phases.
  replace (spr_verdict c cm (without_spr b)) with (@Done (option verdict) None)
    by (unfold spr_verdict; destruct (_ <=? _); reflexivity).
  rewrite Hv. change (grade_opr c cm (without_spr b)) with (grade_opr c cm b).
  change (b_height (without_spr b)) with (b_height b).
  destruct (adjust_phase c cm (b_height b) s) as [s2| | |]; [cbn [obind]|reflexivity..].
  destruct (grade_opr c cm b) as [g| | |]; [cbn [obind]|reflexivity..].
  rewrite Hr. destruct (rate_phase c cm (without_spr b) g None s2) as [[[s3 ir] en]| | |]; [cbn [obind]|reflexivity..].
  destruct en; [reflexivity|]. change (tx_phase c cm mem (without_spr b) ir s3) with (tx_phase c cm mem b ir s3).
  destruct (tx_phase c cm mem b ir s3) as [[s4 mem']| | |]; [cbn [obind]|reflexivity..].
  rewrite Hp. reflexivity.
Qed.

Theorem sync_block_ignores_spr_before_v20 c cm mem b s :
  b_height b < c_V20HeightActivation c ->
  sync_block c cm mem b s =
  sync_block c cm mem {| b_height := b_height b; b_ts := b_ts b; b_opr := b_opr b; b_spr := None;
                         b_tx := b_tx b; b_factoid := b_factoid b |} s.
Proof.
  intros Hlt. apply (sync_block_without_spr c cm mem b s None).
  - unfold spr_verdict. replace (c_V20HeightActivation c <=? b_height b) with false by lia. reflexivity.
  - intros g s0. unfold rate_phase. cbn [without_spr b_height].
    replace (b_height b <? c_V20HeightActivation c) with true by lia. reflexivity.
  - reflexivity.
Qed.
Print Assumptions sync_block_ignores_spr_before_v20.

Lemma pay_winners_nil s ts : pay_winners s ts [] = Ok s.
Proof. reflexivity. Qed.

Theorem spr_pay_step_identity c h ts (gS : option verdict) s :
  no_winners gS ->
  (if c_V20HeightActivation c <=? h
   then match gS with Some v => of_res (pay_winners s ts (v_winners v)) | None => Done s end
   else Done s) = Done s.
Proof.
  intros Hn. destruct (c_V20HeightActivation c <=? h); [|reflexivity].
  destruct gS as [v|]; [|reflexivity]. cbn in Hn. rewrite Hn. reflexivity.
Qed.
Print Assumptions spr_pay_step_identity.

(* block level: when GradeS answers (no error) with nothing, or with a verdict that has no winners, the block
   is processed exactly as if the SPR chain had no entries for it: no rates from it, nobody paid *)
Theorem sync_block_spr_no_winners_is_no_spr c cm mem b s g :
  grade_spr c cm b = Done g -> no_winners g -> grade_spr_err c cm b = false ->
  sync_block c cm mem b s = sync_block c cm mem (without_spr b) s.
Proof.
  intros Hg Hn Herr.
  destruct (Z.ltb_spec (b_height b) (c_V20HeightActivation c)) as [Hlt|Hge].
  { apply sync_block_ignores_spr_before_v20. exact Hlt. }
  apply (sync_block_without_spr c cm mem b s g).
  - unfold spr_verdict. replace (c_V20HeightActivation c <=? b_height b) with true by lia. exact Hg.
  - intros g0 s0. unfold rate_phase. change (grade_spr_err c cm (without_spr b)) with false.
    rewrite Herr, (no_winners_first_assets g Hn). reflexivity.
  - intros g0 s0. destruct g as [v|]; [|reflexivity]. cbn in Hn. unfold payout_phase. rewrite Hn. reflexivity.
Qed.
Print Assumptions sync_block_spr_no_winners_is_no_spr.

From Model Require Import Examples.

(* three PEG holders (12, 10, 11 by balance); 13 holds only pUSD, 14 has an empty PEG cell *)
Definition ex_cm3 : db :=
  set_bal empty_db (list_to_map [((10, PTickerPEG), 500); ((11, PTickerPEG), 300); ((12, PTickerPEG), 700);
                                 ((13, PTickerUSD), 900); ((14, PTickerPEG), 0)]).
Example ex_top100 : top100 ex_cm3 = [12; 10; 11].
Proof. vm_compute. reflexivity. Qed.

(* equal balances: the smaller address first *)
Example ex_top100_tie :
  top100 (set_bal empty_db (list_to_map [((21, PTickerPEG), 5); ((20, PTickerPEG), 5); ((22, PTickerPEG), 6)])) = [22; 20; 21].
Proof. vm_compute. reflexivity. Qed.

(* the 100-cut: of 101 holders with balances 1..101 (address k holds k), address 1 is the one left out *)
Definition ex_cm101 : db :=
  set_bal empty_db (list_to_map (map (fun k => ((Z.of_nat k, PTickerPEG), Z.of_nat k)) (seq 1 101))).
Example ex_top100_cut :
  length (top100 ex_cm101) = 100%nat /\ existsb (Z.eqb 1) (top100 ex_cm101) = false /\
  existsb (Z.eqb 2) (top100 ex_cm101) = true /\ hd 0 (top100 ex_cm101) = 101.
Proof. vm_compute. repeat split; reflexivity. Qed.

Definition ex_winner (h : Z) (a : addr) (p : Z) : winner :=
  {| w_hash := 7000 + a; w_addr := Some a; w_payout := p; w_pos := 0; w_height := h |}.
Definition ex_assets : list (Z * Z) := [(PTickerPEG, 200000000); (PTickerUSD, 100000000); (PTickerFCT, 400000000)].
(* what the grader would say had it been handed both records / only the first / none *)
Definition ex_v_both (h : Z) : verdict :=
  {| v_winners := [ex_winner h 10 7; ex_winner h 13 7]; v_graded := [ex_winner h 10 7; ex_winner h 13 7]; v_short := [h]; v_assets := ex_assets |}.
Definition ex_v_first (h : Z) : verdict :=
  {| v_winners := [ex_winner h 10 7]; v_graded := [ex_winner h 10 7]; v_short := [h]; v_assets := ex_assets |}.
Definition ex_v_none : verdict := {| v_winners := []; v_graded := []; v_short := []; v_assets := [] |}.

(* entry 0: staker 10 (a top holder): included; entry 1: staker 13 (holds no PEG): excluded;
   entry 2: a top holder but a single ExtID: excluded; entry 3: staker 11: included; entry 4: ExtIDs[1] is no address *)
Definition ex_si (h : Z) : spr_in :=
  {| si_entries := [ {| se_nexts := 3; se_staker := Some 10 |}; {| se_nexts := 3; se_staker := Some 13 |};
                     {| se_nexts := 1; se_staker := Some 11 |}; {| se_nexts := 2; se_staker := Some 11 |};
                     {| se_nexts := 5; se_staker := None |} ];
     si_alts := [ (5, [0; 1; 3], Some (ex_v_both h)); (5, [0; 3], Some (ex_v_first h)); (5, [], Some ex_v_none) ] |}.
Definition ex_spr_block (h : Z) (si : spr_in) : block :=
  {| b_height := h; b_ts := 1000 + h; b_opr := None; b_spr := Some si; b_tx := None; b_factoid := [] |}.

Example ex_spr_incl : spr_incl ex_cm3 (ex_si 450) = [0; 3].
Proof. vm_compute. reflexivity. Qed.
Example ex_grade_spr :
  grade_spr ex_cfg ex_cm3 (ex_spr_block 450 (ex_si 450)) = Done (Some (ex_v_first 450)) /\
  grade_spr_err ex_cfg ex_cm3 (ex_spr_block 450 (ex_si 450)) = false.
Proof. vm_compute. split; reflexivity. Qed.

(* the block pays the staker who is a top holder and not the other one, although the grader would have paid
   both had it been handed both records; with an empty committed database nobody is handed to the grader *)
Example ex_spr_block_pays_filtered :
  match step_block ex_cfg ex_cm3 empty_cache (ex_spr_block 450 (ex_si 450)) with
  | Done (s, _) => get_bal (bal s) 10 PTickerPEG = 507 /\ get_bal (bal s) 13 PTickerPEG = 0 /\ is_rated s 450 = true
  | _ => False
  end /\
  match step_block ex_cfg empty_db empty_cache (ex_spr_block 450 (ex_si 450)) with
  | Done (s, _) => bal s = ∅ /\ is_rated s 450 = false /\ synced s = Some 450
  | _ => False
  end.
Proof. split; vm_compute; repeat split; reflexivity. Qed.

(* from 2.0 on the SPR chain does matter: the same block without its SPR entries records no rates; and with an
   empty committed database the verdict is the one without winners *)
Example ex_spr_matters_from_v20 :
  sync_block ex_cfg ex_cm3 empty_cache (ex_spr_block 450 (ex_si 450)) ex_cm3 <>
  sync_block ex_cfg ex_cm3 empty_cache (without_spr (ex_spr_block 450 (ex_si 450))) ex_cm3 /\
  sync_block ex_cfg ex_cm3 empty_cache (ex_spr_block 350 (ex_si 350)) ex_cm3 =
  sync_block ex_cfg ex_cm3 empty_cache (without_spr (ex_spr_block 350 (ex_si 350))) ex_cm3 /\
  grade_spr ex_cfg empty_db (ex_spr_block 450 (ex_si 450)) = Done (Some ex_v_none) /\ no_winners (Some ex_v_none) /\
  sync_block ex_cfg empty_db empty_cache (ex_spr_block 450 (ex_si 450)) empty_db =
  sync_block ex_cfg empty_db empty_cache (without_spr (ex_spr_block 450 (ex_si 450))) empty_db.
Proof.
  split.
  { (* told apart by one observation: only the first records rates *)
    intros E.
    assert (H : match sync_block ex_cfg ex_cm3 empty_cache (ex_spr_block 450 (ex_si 450)) ex_cm3 with
                | Done (s, _) => is_rated s 450 | _ => false end = true) by (vm_compute; reflexivity).
    rewrite E in H. vm_compute in H. discriminate H. }
  split; [apply sync_block_ignores_spr_before_v20; vm_compute; reflexivity|].
  split; [vm_compute; reflexivity|]. split; [reflexivity|].
  eapply sync_block_spr_no_winners_is_no_spr; [vm_compute; reflexivity|reflexivity|vm_compute; reflexivity].
Qed.
