(* Lemmas/TotalityCodes.v — C08 (sync liveness): the exact exceptions of the arrival path, with NO
   hypothesis about the entries.  From a [hist_closed] state, whatever the entries of a transaction
   block are, ApplyTransactionBlock never panics and can only fail with one of four codes:

     E_BADCOLUMN      excluded by [entry_wf] (input ticker is a ticker)
     E_UNCAUGHT       excluded by [entry_wf] (the signer is not the burn address)
     E_SQLARG,
     E_OVERFLOW_CELL  excluded by [bal_room]

   In particular never E_UNIQUE_HIST / E_UNIQUE_HOLDING (repeated, conflicting entries), never
   E_NORATES / E_CONVERT, never [Fail (100 - code)] of a rejection other than -1. *)
From Model Require Import Ledger.
From Lemmas Require Import ArithLemmas DbLemmas LedgerLemmas TotalityLemmas.
From Gen Require Import Consts.
From Coq Require Import Lia ZifyBool.
Open Scope Z_scope.
Open Scope list_scope.

Definition balance_codes : list Z := [E_BADCOLUMN; E_SQLARG; E_OVERFLOW_CELL].
Definition arrival_codes : list Z := E_UNCAUGHT :: balance_codes.

(* a result that is Ok, or Fail with a code of the list *)
Definition fails_within {A} (codes : list Z) (r : res A) : Prop :=
  match r with Ok _ => True | Fail code => In code codes | Panic _ => False end.

Lemma fold_res_within {S X} (codes : list Z) (f : S -> X -> res S) (l : list X) :
  (forall s x, fails_within codes (f s x)) ->
  forall s0, fails_within codes (fold_left (fun r x => let? s := r in f s x) l (Ok s0)).
Proof.
  intros Hf. induction l as [|x l IH]; intros s0; cbn [fold_left]; [exact I|].
  cbn [rbind]. pose proof (Hf s0 x) as H. destruct (f s0 x) as [s1|code|code]; [apply IH| |destruct H].
  rewrite fold_res_not_ok by discriminate. exact H.
Qed.

Lemma add_to_balance_within s a t v : fails_within balance_codes (add_to_balance s a t v).
Proof.
  unfold add_to_balance, balance_codes. destruct (negb _); [left; reflexivity|].
  destruct (_ <=? v); [right; left; reflexivity|]. destruct (_ <? _); [right; right; left; reflexivity|exact I].
Qed.

Lemma sub_from_balance_within s a t v code :
  sub_from_balance s a t v = SubFail code -> In code balance_codes.
Proof.
  unfold sub_from_balance. destruct (v =? 0).
  - pose proof (add_to_balance_within s a t 0) as H. destruct (add_to_balance s a t 0); intros E; inversion E; subst; [exact H|destruct H].
  - destruct (negb _); [intros E; inversion E; left; reflexivity|].
    destruct (_ <? v); [discriminate|]. destruct (_ <=? v); [intros E; inversion E; right; left; reflexivity|discriminate].
Qed.

Section WithCfg.
Variable c : cfg.

Lemma credit_transfers_within h hs idx ty trs s : fails_within balance_codes (credit_transfers c h hs idx ty trs s).
Proof.
  unfold credit_transfers. apply fold_res_within. intros s0 tr.
  destruct (tr_addr tr =? burn_addr c h); [exact I|].
  pose proof (add_to_balance_within s0 (tr_addr tr) ty (tr_amt tr)) as H.
  destruct (add_to_balance s0 (tr_addr tr) ty (tr_amt tr)); cbn [rbind]; auto.
Qed.

Lemma within_weaken {A} (r : res A) : fails_within balance_codes r -> fails_within arrival_codes r.
Proof. destruct r; cbn; auto. Qed.

Lemma record_txs_within h hs rates avgs txs : forall idx s,
  has_conversions txs = false -> fails_within arrival_codes (record_txs c h hs rates avgs idx txs s).
Proof.
  induction txs as [|t txs IH]; intros idx s Hc; cbn [record_txs]; [exact I|].
  apply has_conversions_cons in Hc as [Hc1 Hc2].
  destruct (sub_from_balance s (tx_addr t) (tx_type t) (tx_amt t)) as [s1| |code] eqn:Es.
  - assert (Hp : is_peg_request t = false).
    { destruct (is_peg_request t) eqn:E; [|reflexivity]. apply is_peg_request_conversion in E. congruence. }
    rewrite Hp, Hc1, andb_false_r.
    set (s3 := set_executed _ hs h).
    pose proof (credit_transfers_within h hs idx (tx_type t) (tx_transfers t) s3) as H.
    destruct (credit_transfers c h hs idx (tx_type t) (tx_transfers t) s3) as [s4|code|code]; cbn [rbind].
    + apply IH; exact Hc2.
    + right; exact H.
    + destruct H.
  - left; reflexivity.
  - right. eapply sub_from_balance_within; exact Es.
Qed.

(* applyTransactionBatch on a batch without conversions *)
Lemma apply_batch_arrival h s hs txs rates avgs :
  has_conversions txs = false ->
  match apply_batch c h s hs txs rates avgs with
  | BApplied _ => True
  | BRejected code => code = -1
  | BDropped => False
  | BFail code => In code arrival_codes
  end.
Proof.
  intros Hc. unfold apply_batch.
  pose proof (check_txs_result c h s rates avgs txs) as Hcv.
  destruct (check_txs c h s rates avgs txs) as [r|].
  { destruct r as [s'|code| |code]; [exact I|exact (Hcv Hc)|congruence|destruct Hcv; congruence]. }
  destruct (sim_txs_cases c h (map tx_addr txs) rates avgs txs Hcv (bal s)) as [E2|E2]; rewrite E2; [|reflexivity].
  unfold record_batch. pose proof (record_txs_within h hs rates avgs txs 0 s Hc) as H.
  destruct (record_txs c h hs rates avgs 0 txs s); [exact I|exact H|destruct H].
Qed.

Theorem apply_entry_failures h s order e :
  hist_closed s -> fails_within arrival_codes (apply_entry c h s order e).
Proof.
  intros Hcl. destruct (apply_entry_on_closed c h s order e Hcl) as [E|(txs & s1 & _ & _ & H)]; [rewrite E; exact I|].
  destruct (has_conversions txs) eqn:Hc; [destruct H as (s2 & E & _); rewrite E; exact I|]. rewrite H.
  pose proof (apply_batch_arrival h s1 (e_hash e) txs ∅ ∅ Hc) as T.
  destruct (apply_batch c h s1 (e_hash e) txs ∅ ∅) as [s2|code| |code]; [exact I| |exact I|exact T].
  rewrite T. exact I.
Qed.

(* a whole block, any entries: repeated hashes, garbage, conflicting, oversized *)
Theorem apply_tx_block_failures h es : forall s,
  hist_closed s -> fails_within arrival_codes (apply_tx_block c h s es).
Proof.
  intros s. rewrite apply_tx_block_fold. generalize 0 as i. revert s.
  induction es as [|e es IH]; intros s i Hcl; [exact I|]. rewrite tx_fold_cons.
  pose proof (apply_entry_failures h s i e Hcl) as H.
  destruct (apply_entry c h s i e) as [s1|code|code] eqn:E; cbn [rbind]; [|exact H|exact H].
  apply IH. eapply (lwrites_closed True true true); [eapply apply_entry_writes; exact E|exact Hcl].
Qed.
End WithCfg.

Print Assumptions apply_entry_failures.
Print Assumptions apply_tx_block_failures.
