(* Lemmas/ApiInvariant.v — C17: the well-formedness [hist_wf] of the history tables (Model/Api.v), under which
   the API query theorems of ApiLemmas.v hold, is not an assumption about the state as far as the two primary
   keys and the two foreign keys go: they hold in EVERY state reached by replay from the fresh database.

     wf_tx_pk      PRIMARY KEY(entry_hash, tx_index) of pn_history_transaction : insert_htx refuses an existing key,
                   the amount updates (set_to_amount / set_peg_request_amounts) keep the keys
     wf_lookup_pk  PRIMARY KEY(entry_hash, tx_index, address) of pn_history_lookup : add_lookup is ON CONFLICT DO NOTHING
     wf_lookup_fk  every lookup row is written together with its transaction row
     wf_tx_fk      every writer inserts the batch row before its transaction rows and stops when the batch row is
                   refused (this is [hist_closed], TotalityInvariant.replay_closed)

   The remaining field, wf_batch_once (one batch row per entry hash), is NOT enforced by the schema
   (UNIQUE(entry_hash, height) only) and stays a hypothesis: see ApiLemmas.dup_hash_breaks_count. *)
From Model Require Import Api Examples.
From Lemmas Require Import DbLemmas BlockLemmas ChainLemmas TotalityLemmas TotalityInvariant ApiLemmas.


Open Scope Z_scope.
Open Scope list_scope.

Record hist_wf_weak (s : db) : Prop := {
  ww_tx_pk : NoDup (map htx_key (htxs s));
  ww_lookup_pk : NoDup (lookups s);
  ww_lookup_fk : forall l, In l (lookups s) -> In (fst l) (map htx_key (htxs s));
  ww_tx_fk : forall t, In t (htxs s) -> In (ht_hash t) (map hb_hash (hist s))
}.

Lemma hist_wf_iff_weak s : hist_wf s <-> hist_wf_weak s /\ NoDup (map hb_hash (hist s)).
Proof.
  split.
  - intros [W1 W2 W3 W4 W5]. split; [constructor; assumption|exact W1].
  - intros [[W2 W3 W4 W5] W1]. constructor; assumption.
Qed.
Lemma hist_wf_weaken s : hist_wf s -> hist_wf_weak s.
Proof. intros H. exact (proj1 (proj1 (hist_wf_iff_weak s) H)). Qed.

Definition tx_tables : Type := (list htx * list (hash * Z * addr))%type.
Definition tx_tables_of (s : db) : tx_tables := (htxs s, lookups s).
Definition keys_ok (p : tx_tables) : Prop :=
  NoDup (map htx_key (fst p)) /\ NoDup (snd p) /\ forall l, In l (snd p) -> In (fst l) (map htx_key (fst p)).
Definition keys_pres (p q : tx_tables) : Prop := keys_ok p -> keys_ok q.
Global Instance keys_pres_po : PreOrder keys_pres.
Proof. exact (preserved_po keys_ok). Qed.

Lemma htx_keys_upd s hs i (f : htx -> htx) :
  (forall r, htx_key (f r) = htx_key r) -> map htx_key (htxs (upd_htx s hs i f)) = map htx_key (htxs s).
Proof.
  intros Hf. unfold upd_htx. cbn [htxs set_htxs]. rewrite map_map. apply map_ext. intros r.
  destruct ((ht_hash r =? hs) && (ht_index r =? i)); [apply Hf|reflexivity].
Qed.
Lemma keys_ok_upd s hs i (f : htx -> htx) :
  (forall r, htx_key (f r) = htx_key r) -> keys_ok (tx_tables_of s) -> keys_ok (tx_tables_of (upd_htx s hs i f)).
Proof.
  intros Hf (K1 & K2 & K3). unfold keys_ok, tx_tables_of in *. cbn [fst snd] in *.
  rewrite (htx_keys_upd s hs i f Hf). unfold upd_htx at 1 2. cbn [lookups set_htxs]. auto.
Qed.

Section WithCfg.
Variable c : cfg.

(* the only insert into the two tables is [insert_htx]: ApiLemmas.insert_htx_keys *)
Lemma lstep_keys_ok K rw ex s s' : lstep K rw ex s s' -> keys_ok (tx_tables_of s) -> keys_ok (tx_tables_of s').
Proof.
  intros [] Hk; try (untouched; exact Hk).
  - apply keys_ok_upd; [reflexivity|exact Hk].
  - apply keys_ok_upd; [reflexivity|exact Hk].
  - destruct Hk as (K1 & K2 & K3). eapply insert_htx_keys; eassumption.
Qed.
Lemma bstep_keys_ok K h s s' : bstep K h s s' -> keys_ok (tx_tables_of s) -> keys_ok (tx_tables_of s').
Proof. intros [? ? H|? ? ? H|? ? ? ? ? H]; [exact (lstep_keys_ok _ _ _ _ _ H)|untouched; assumption..]. Qed.

Lemma sync_block_keys_ok cm mem b s s' mem' :
  sync_block c cm mem b s = Done (s', mem') -> keys_ok (tx_tables_of s) -> keys_ok (tx_tables_of s').
Proof. intros H. exact (bwrites_invariant _ _ _ (bstep_keys_ok _ _) _ _ (sync_block_writes c _ _ _ _ _ _ H)). Qed.
Lemma nullify_burn_keys_ok cm h ts s : keys_ok (tx_tables_of s) -> keys_ok (tx_tables_of (nullify_burn c cm h ts s)).
Proof. exact (lwrites_invariant _ _ _ _ (lstep_keys_ok _ _ _) _ _ (nullify_burn_writes c cm h ts s)). Qed.
Theorem step_block_keys_ok cm mem b s' mem' :
  step_block c cm mem b = Done (s', mem') -> keys_ok (tx_tables_of cm) -> keys_ok (tx_tables_of s').
Proof.
  intros H Hk. apply step_block_writes in H as (s1 & H1 & H2). apply insert_synced_shape in H2 as (_ & ->).
  exact (bwrites_invariant _ _ _ (bstep_keys_ok _ _) _ _ H1 Hk).
Qed.

(* hist_wf_weak = keys_ok + the transaction-row half of hist_closed *)
Lemma hist_wf_weak_of s : keys_ok (tx_tables_of s) -> hist_closed s -> hist_wf_weak s.
Proof.
  intros (K1 & K2 & K3) [C1 _]. constructor; [exact K1|exact K2|exact K3|].
  intros t Ht. apply (C1 (ht_hash t)). unfold htx_keys. apply in_map. exact Ht.
Qed.
Lemma hist_wf_weak_keys_ok s : hist_wf_weak s -> keys_ok (tx_tables_of s).
Proof. intros [W2 W3 W4 _]. split; [exact W2|split; [exact W3|exact W4]]. Qed.

(* one block: the weak form is kept (the holding half of hist_closed is needed for the foreign key, because a
   held batch is recorded by hash and its history rows are looked for by that hash) *)
Theorem step_block_hist_wf_weak cm mem b s' mem' :
  hist_closed cm -> hist_wf_weak cm -> step_block c cm mem b = Done (s', mem') -> hist_wf_weak s'.
Proof.
  intros Hc Hw H. apply hist_wf_weak_of.
  - eapply step_block_keys_ok; [exact H|apply hist_wf_weak_keys_ok; exact Hw].
  - eapply step_block_closed; eauto.
Qed.

End WithCfg.

(* from any committed database that satisfies the invariants (e.g. after a restart) *)
Theorem replay_from_hist_wf_weak : forall c bs cm mem s m,
  hist_closed cm -> hist_wf_weak cm -> replay c cm mem bs = Done (s, m) -> hist_wf_weak s.
Proof.
  intros c bs cm mem s m Hc Hw H.
  assert (G : hist_closed s /\ hist_wf_weak s); [|exact (proj2 G)].
  refine (replay_invariant c (fun x => hist_closed x /\ hist_wf_weak x) _ bs cm mem s m (conj Hc Hw) H).
  intros cm0 mem0 b s' mem' [Hc0 Hw0] Hs. split; [eapply step_block_closed; eauto|eapply step_block_hist_wf_weak; eauto].
Qed.

Theorem replay_hist_wf_weak : forall c bs s m, replay c genesis empty_cache bs = Done (s, m) -> hist_wf_weak s.
Proof.
  intros c bs s m. apply replay_from_hist_wf_weak; [exact hist_closed_genesis|exact (hist_wf_weaken _ hist_wf_empty)].
Qed.

Corollary replay_hist_wf : forall c bs s m,
  replay c genesis empty_cache bs = Done (s, m) -> NoDup (map hb_hash (hist s)) -> hist_wf s.
Proof.
  intros c bs s m H Hnd. apply hist_wf_iff_weak. split; [eapply replay_hist_wf_weak; exact H|exact Hnd].
Qed.

(* the hypothesis of replay_hist_wf cannot be dropped: a REACHABLE state with two batch rows of one hash.
   ex_cfg; block 101: a factoid burn whose txid is mock_hash 499 (= 0x499, the mock id "%064d" of height 499 read as
   hex); block 500 = V20DevRewardsHeightActivation: NullifyBurnAddress (old era) writes one zero coinbase per ticker
   under the mock ids of heights 500, 499, 498, ... all at height 500.  UNIQUE(entry_hash, height) accepts the second
   batch row of 0x499 (other height), PRIMARY KEY(entry_hash, tx_index) accepts its row (index 1, the burn has index
   0), and had it refused it the error would have been swallowed with the batch row already written.  Both blocks
   succeed; the weak form holds (by the theorem), hist_wf does not, and the hash query returns every action of the
   hash twice. *)
Definition dup_chain : list block :=
  [ ex_block 101 None None [ex_burn (mock_hash 499) 100]; ex_block 500 None None [] ].
Definition dup_final : db :=
  match replay ex_cfg genesis empty_cache dup_chain with Done (s, _) => s | _ => genesis end.

Example reachable_duplicate_batch_hash :
  (exists m, replay ex_cfg genesis empty_cache dup_chain = Done (dup_final, m)) /\
  hist_wf_weak dup_final /\
  map (fun b => (hb_hash b, hb_height b)) (firstn 3 (hist dup_final)) = [(1177, 101); (1280, 500); (1177, 500)] /\
  ~ NoDup (map hb_hash (hist dup_final)) /\ ~ hist_wf dup_final /\
  query_all dup_final (ex_q (ByHash 1177) false) = [(1177, 0); (1177, 1); (1177, 0); (1177, 1)].
Proof.
  assert (E : exists m, replay ex_cfg genesis empty_cache dup_chain = Done (dup_final, m)).
  { assert (R : match replay ex_cfg genesis empty_cache dup_chain with Done _ => True | _ => False end) by (vm_compute; exact I).
    unfold dup_final. destruct (replay ex_cfg genesis empty_cache dup_chain) as [[s m]|?|?|?]; try contradiction.
    exists m. reflexivity. }
  assert (ND : ~ NoDup (map hb_hash (hist dup_final))).
  { intros Hnd.
    assert (Hs : exists l, map hb_hash (hist dup_final) = 1177 :: 1280 :: 1177 :: l) by (eexists; vm_compute; reflexivity).
    destruct Hs as [l Hl]. rewrite Hl in Hnd. inversion Hnd as [|x l0 Hn _]. apply Hn. right. left. reflexivity. }
  split; [exact E|]. split; [destruct E as [m E]; exact (replay_hist_wf_weak _ _ _ _ E)|].
  split; [vm_compute; reflexivity|]. split; [exact ND|]. split; [intros [W1 _ _ _ _]; exact (ND W1)|].
  vm_compute. reflexivity.
Qed.

Print Assumptions replay_hist_wf_weak.
Print Assumptions replay_hist_wf.
Print Assumptions replay_from_hist_wf_weak.
Print Assumptions step_block_hist_wf_weak.
Print Assumptions reachable_duplicate_batch_hash.
