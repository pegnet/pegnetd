(* Lemmas/HistoryLemmas2.v — the accounting predicate of the chain-level form of C17 / C04: "every balance
   cell outside the special addresses is the sum of what the executed history rows stand for", and its
   preservation by each writer of the ledger.  The coinbase-style writers keep it under a condition on the
   hashes they insert; accounts_fails_on_hash_collision shows that the condition cannot be dropped. *)
From Model Require Import Block Examples.
From Lemmas Require Import DbLemmas LedgerLemmas BlockLemmas ChainLemmas TotalityLemmas StatusLemmas ApiLemmas HistoryLemmas.
From Gen Require Import Consts.
From Coq Require Import Lia RelationClasses.
Open Scope Z_scope.
Open Scope list_scope.

(* the status of an entry hash: the executed column of the first batch row with that hash (what the
   oracle Corr.Chain.hist_exec reads), 0 when there is none *)
Definition exec_of (l : list hbatch) (hs : hash) : Z :=
  match find (fun r => hb_hash r =? hs) l with Some r => hb_exec r | None => 0 end.
Definition has_batch (l : list hbatch) (hs : hash) : bool := existsb (fun r => hb_hash r =? hs) l.

Lemma hist_has_has_batch s hs : hist_has s hs = has_batch (hist s) hs.
Proof. reflexivity. Qed.

Lemma has_batch_In l hs : has_batch l hs = true <-> In hs (map hb_hash l).
Proof.
  unfold has_batch. rewrite existsb_exists, in_map_iff. split.
  - intros (b & Hin & E). exists b. split; [apply Z.eqb_eq; exact E|exact Hin].
  - intros (b & E & Hin). exists b. split; [exact Hin|apply Z.eqb_eq; exact E].
Qed.
Lemma exec_of_none l hs : has_batch l hs = false -> exec_of l hs = 0.
Proof.
  unfold exec_of, has_batch. induction l as [|r l IH]; [reflexivity|]. cbn [existsb find]. intros H.
  apply orb_false_iff in H as [H1 H2]. rewrite H1. apply IH; exact H2.
Qed.
Lemma exec_of_app_old l B hs : has_batch l hs = true -> exec_of (l ++ B) hs = exec_of l hs.
Proof.
  unfold exec_of, has_batch. induction l as [|r l IH]; [discriminate|]. cbn [existsb find app].
  destruct (hb_hash r =? hs); [reflexivity|]. cbn [orb]. exact IH.
Qed.
Lemma exec_of_app_new l B hs : has_batch l hs = false -> exec_of (l ++ B) hs = exec_of B hs.
Proof.
  unfold exec_of, has_batch. induction l as [|r l IH]; [reflexivity|]. cbn [existsb find app]. intros H.
  apply orb_false_iff in H as [H1 H2]. rewrite H1. apply IH; exact H2.
Qed.
Lemma exec_of_app_other l B hs : has_batch B hs = false -> exec_of (l ++ B) hs = exec_of l hs.
Proof.
  intros H. destruct (has_batch l hs) eqn:E; [apply exec_of_app_old; exact E|].
  rewrite (exec_of_app_new _ _ _ E), (exec_of_none _ _ H), (exec_of_none _ _ E). reflexivity.
Qed.
Lemma has_batch_app l B hs : has_batch (l ++ B) hs = has_batch l hs || has_batch B hs.
Proof. unfold has_batch. apply existsb_app. Qed.
Lemma has_batch_mark hs code l hs' : has_batch (mark_exec hs code l) hs' = has_batch l hs'.
Proof.
  unfold has_batch, mark_exec. induction l as [|r l IH]; [reflexivity|]. cbn [map existsb]. rewrite IH.
  destruct (hb_hash r =? hs); reflexivity.
Qed.
Lemma exec_of_mark_same hs code l : has_batch l hs = true -> exec_of (mark_exec hs code l) hs = code.
Proof.
  unfold exec_of, has_batch, mark_exec. induction l as [|r l IH]; [discriminate|]. cbn [map existsb find].
  destruct (hb_hash r =? hs) eqn:E; cbn [hb_hash]; rewrite E; [reflexivity|]. cbn [orb]. exact IH.
Qed.
Lemma exec_of_mark_other hs code l hs' : hs' <> hs -> exec_of (mark_exec hs code l) hs' = exec_of l hs'.
Proof.
  intros N. unfold exec_of, mark_exec. induction l as [|r l IH]; [reflexivity|]. cbn [map find].
  destruct (hb_hash r =? hs) eqn:E; cbn [hb_hash].
  - apply Z.eqb_eq in E. destruct (Z.eqb_spec (hb_hash r) hs'); [congruence|]. exact IH.
  - destruct (hb_hash r =? hs'); [reflexivity|exact IH].
Qed.
Lemma exec_of_pos_has_batch l hs : 0 < exec_of l hs -> has_batch l hs = true.
Proof. intros H. destruct (has_batch l hs) eqn:E; [reflexivity|]. rewrite (exec_of_none _ _ E) in H. lia. Qed.

Lemma exec_of_snoc_new l b :
  has_batch l (hb_hash b) = false -> exec_of (l ++ [b]) (hb_hash b) = hb_exec b /\ has_batch (l ++ [b]) (hb_hash b) = true.
Proof.
  intros H. rewrite (exec_of_app_new _ _ _ H), has_batch_app. unfold exec_of, has_batch at 2. cbn [find existsb].
  rewrite Z.eqb_refl. split; [reflexivity|apply orb_true_r].
Qed.

Lemma exec_of_nodup L b : NoDup (map hb_hash L) -> In b L -> exec_of L (hb_hash b) = hb_exec b.
Proof. intros Hnd Hin. unfold exec_of. rewrite (find_nodup L b Hnd Hin). reflexivity. Qed.

Definition only (X : hash) (l l' : list hbatch) : Prop :=
  forall Y, Y <> X -> exec_of l' Y = exec_of l Y /\ has_batch l' Y = has_batch l Y.
Lemma only_refl X l : only X l l.
Proof. intros Y _. split; reflexivity. Qed.
Lemma only_snoc X l b : hb_hash b = X -> only X l (l ++ [b]).
Proof.
  intros Hb Y N. assert (E : has_batch [b] Y = false).
  { unfold has_batch. cbn [existsb]. rewrite Hb. destruct (Z.eqb_spec X Y); [congruence|reflexivity]. }
  split; [apply exec_of_app_other; exact E|rewrite has_batch_app, E; apply orb_false_r].
Qed.
Lemma only_mark X code l : only X l (mark_exec X code l).
Proof. intros Y N. split; [apply exec_of_mark_other; exact N|apply has_batch_mark]. Qed.

Definition special_addr (a : addr) : bool :=
  existsb (Z.eqb a) [GlobalBurnAddress; GlobalOldBurnAddress; GlobalMintAddress].

Section WithCfg.
Variable c : cfg.

(* what a row contributes: its effect when its hash counts as executed, with the burn address in force
   at the height it was executed at *)
Definition counted (l : list hbatch) (a : addr) (t : ticker) (r : htx) : Z :=
  if 0 <? exec_of l (ht_hash r)
  then effect_on a t (row_effect (burn_addr c (exec_of l (ht_hash r))) r) else 0.
Definition sum_counted (l : list hbatch) (a : addr) (t : ticker) (rows : list htx) : Z :=
  fold_right (fun r acc => counted l a t r + acc) 0 rows.
Definition hist_sum (s : db) (a : addr) (t : ticker) : Z := sum_counted (hist s) a t (htxs s).

(* THE accounting predicate: every cell outside the special addresses equals the replayed history *)
Definition accounts (s : db) : Prop :=
  forall a t, special_addr a = false -> get_bal (bal s) a t = hist_sum s a t.
Definition rows_have_batch (s : db) : Prop := Forall (fun r => has_batch (hist s) (ht_hash r) = true) (htxs s).
Definition hist_ok (s : db) : Prop := accounts s /\ rows_have_batch s.

Lemma sum_counted_nil l a t : sum_counted l a t [] = 0.
Proof. reflexivity. Qed.
Lemma sum_counted_cons l a t r rows : sum_counted l a t (r :: rows) = counted l a t r + sum_counted l a t rows.
Proof. reflexivity. Qed.
Lemma sum_counted_app l a t r1 r2 : sum_counted l a t (r1 ++ r2) = sum_counted l a t r1 + sum_counted l a t r2.
Proof. apply fold_sum_app. Qed.
Lemma sum_counted_split l a t hs rows :
  sum_counted l a t rows = sum_counted l a t (rows_of hs rows) + sum_counted l a t (rows_not hs rows).
Proof. apply fold_sum_filter. Qed.
Lemma sum_counted_ext l l' a t rows :
  Forall (fun r => exec_of l' (ht_hash r) = exec_of l (ht_hash r)) rows -> sum_counted l' a t rows = sum_counted l a t rows.
Proof. intros H. apply fold_sum_ext_in. intros r Hr. unfold counted. rewrite (proj1 (Forall_forall _ _) H r Hr). reflexivity. Qed.
Lemma sum_counted_uniform l a t hs rows :
  Forall (fun r => ht_hash r = hs) rows ->
  sum_counted l a t rows = if 0 <? exec_of l hs then rows_effect (burn_addr c (exec_of l hs)) a t rows else 0.
Proof.
  induction 1 as [|r rows Hr _ IH]; [destruct (0 <? _); reflexivity|].
  rewrite sum_counted_cons, IH. unfold counted. rewrite Hr. destruct (0 <? exec_of l hs); [rewrite rows_effect_cons|]; lia.
Qed.
Lemma row_effect_coinbase_any burn burn' r : ht_action r = 3 \/ ht_action r = 4 -> row_effect burn r = row_effect burn' r.
Proof. intros [H|H]; unfold row_effect; rewrite H; reflexivity. Qed.
Lemma sum_counted_coinbase l a t rows :
  Forall (fun r => (ht_action r = 3 \/ ht_action r = 4) /\ 0 < exec_of l (ht_hash r)) rows ->
  sum_counted l a t rows = rows_effect 0 a t rows.
Proof.
  induction 1 as [|r rows [Ha Hr] _ IH]; [reflexivity|].
  rewrite sum_counted_cons, rows_effect_cons, IH. unfold counted.
  destruct (Z.ltb_spec 0 (exec_of l (ht_hash r))); [|lia]. rewrite (row_effect_coinbase_any _ 0 r Ha). reflexivity.
Qed.

Lemma rows_of_hash hs l : Forall (fun r => ht_hash r = hs) (rows_of hs l).
Proof. unfold rows_of. apply Forall_forall. intros r Hr. apply filter_In in Hr as [_ Hr]. apply Z.eqb_eq. exact Hr. Qed.
Lemma rows_not_hash hs l : Forall (fun r => ht_hash r <> hs) (rows_not hs l).
Proof. unfold rows_not. apply Forall_forall. intros r Hr. apply filter_In in Hr as [_ Hr]. apply negb_true_iff, Z.eqb_neq in Hr. exact Hr. Qed.
Lemma Forall_rows_split (P : htx -> Prop) hs l : Forall P (rows_of hs l) -> Forall P (rows_not hs l) -> Forall P l.
Proof.
  intros H1 H2. rewrite Forall_forall in *. intros r Hr. destruct (ht_hash r =? hs) eqn:E.
  - apply H1. apply filter_In. auto.
  - apply H2. apply filter_In. rewrite E. auto.
Qed.
Lemma Forall_rows_of (P : htx -> Prop) hs l : Forall P l -> Forall P (rows_of hs l).
Proof. intros H. rewrite Forall_forall in *. intros r Hr. apply filter_In in Hr as [Hr _]. auto. Qed.
Lemma Forall_rows_not (P : htx -> Prop) hs l : Forall P l -> Forall P (rows_not hs l).
Proof. intros H. rewrite Forall_forall in *. intros r Hr. apply filter_In in Hr as [Hr _]. auto. Qed.

Lemma rows_have_batch_none s hs : rows_have_batch s -> has_batch (hist s) hs = false -> rows_of hs (htxs s) = [].
Proof.
  unfold rows_have_batch, rows_of. intros H Hn. induction H as [|r l Hr _ IH]; [reflexivity|]. cbn [filter].
  destruct (Z.eqb_spec (ht_hash r) hs) as [E|E]; [rewrite E in Hr; congruence|exact IH].
Qed.

Lemma rows_have_batch_some s hs : rows_have_batch s -> rows_of hs (htxs s) <> [] -> has_batch (hist s) hs = true.
Proof.
  intros H Hne. destruct (has_batch (hist s) hs) eqn:E; [reflexivity|]. exfalso. apply Hne. apply rows_have_batch_none; assumption.
Qed.

(* the first half of TotalityLemmas.hist_closed, spelled over the rows: hence kept by every ledger write *)
Lemma rows_have_batch_closed s : rows_have_batch s <-> incl (htx_keys s) (hist_keys s).
Proof.
  unfold rows_have_batch, htx_keys. rewrite Forall_forall. split.
  - intros H x Hx. apply in_map_iff in Hx as (r & <- & Hr). apply hist_has_in. exact (H r Hr).
  - intros H r Hr. apply hist_has_in, H, in_map, Hr.
Qed.
Lemma lwrites_rows_have_batch K rw ex s s' : lwrites K rw ex s s' -> rows_have_batch s -> rows_have_batch s'.
Proof. rewrite !rows_have_batch_closed. apply lwrites_rows_closed. Qed.

Lemma hist_ok_genesis : hist_ok genesis.
Proof.
  split; [|constructor]. intros a t _. unfold hist_sum, genesis, empty_db, get_bal. cbn. rewrite lookup_empty. reflexivity.
Qed.

Lemma hist_ok_one_hash s s' hs :
  rows_not hs (htxs s') = rows_not hs (htxs s) ->
  only hs (hist s) (hist s') ->
  (rows_of hs (htxs s') <> [] -> has_batch (hist s') hs = true) ->
  (forall a t, special_addr a = false ->
     get_bal (bal s') a t - sum_counted (hist s') a t (rows_of hs (htxs s')) =
     get_bal (bal s) a t - sum_counted (hist s) a t (rows_of hs (htxs s))) ->
  hist_ok s -> hist_ok s'.
Proof.
  intros Hnot Hother Hhas Hbal [Hacc Hrb]. split.
  - intros a t Hsp. specialize (Hbal a t Hsp). specialize (Hacc a t Hsp). unfold hist_sum in *.
    rewrite (sum_counted_split _ a t hs (htxs s')). rewrite (sum_counted_split _ a t hs (htxs s)) in Hacc.
    rewrite Hnot.
    rewrite (sum_counted_ext (hist s) (hist s') a t (rows_not hs (htxs s))); [lia|].
    eapply Forall_impl; [|apply rows_not_hash]. cbn. intros r Hr. apply Hother; exact Hr.
  - unfold rows_have_batch in *. apply (Forall_rows_split _ hs).
    + destruct (rows_of hs (htxs s')) as [|r0 l0] eqn:E; [constructor|].
      assert (Hb : has_batch (hist s') hs = true) by (apply Hhas; discriminate).
      rewrite <- E. eapply Forall_impl; [|apply rows_of_hash]. cbn. intros r ->. exact Hb.
    + rewrite Hnot. pose proof (Forall_rows_not _ hs _ Hrb) as F. pose proof (rows_not_hash hs (htxs s)) as G.
      rewrite Forall_forall in *. intros r Hr. rewrite (proj2 (Hother _ (G r Hr))). apply F; exact Hr.
Qed.

Lemma hist_ok_append s s' R B :
  hist s' = hist s ++ B -> htxs s' = htxs s ++ R ->
  Forall (fun r => has_batch (hist s') (ht_hash r) = true) R ->
  (forall a t, special_addr a = false -> get_bal (bal s') a t = get_bal (bal s) a t + sum_counted (hist s') a t R) ->
  hist_ok s -> hist_ok s'.
Proof.
  intros Hh Hx HR Hbal [Hacc Hrb]. unfold rows_have_batch in Hrb.
  assert (Hold : Forall (fun r => exec_of (hist s') (ht_hash r) = exec_of (hist s) (ht_hash r)) (htxs s)).
  { eapply Forall_impl; [|exact Hrb]. cbn. intros r Hr. rewrite Hh. apply exec_of_app_old; exact Hr. }
  split.
  - intros a t Hsp. unfold hist_sum. rewrite Hx, sum_counted_app, (sum_counted_ext _ _ a t _ Hold), (Hbal a t Hsp).
    rewrite (Hacc a t Hsp). reflexivity.
  - unfold rows_have_batch. rewrite Hx. apply Forall_app. split; [|exact HR].
    eapply Forall_impl; [|exact Hrb]. cbn. intros r Hr. rewrite Hh, has_batch_app, Hr. reflexivity.
Qed.

Lemma hist_ok_bal_special s s' :
  hist s' = hist s -> htxs s' = htxs s ->
  (forall a t, special_addr a = false -> get_bal (bal s') a t = get_bal (bal s) a t) ->
  hist_ok s -> hist_ok s'.
Proof.
  intros Hh Hx Hb [Hacc Hrb]. split.
  - intros a t Hsp. unfold hist_sum. rewrite Hh, Hx, (Hb a t Hsp). apply Hacc; exact Hsp.
  - unfold rows_have_batch. rewrite Hh, Hx. exact Hrb.
Qed.

Lemma hist_ok_mark_step s s' X code :
  hist s' = mark_exec X code (hist s) ->
  rows_not X (htxs s') = rows_not X (htxs s) ->
  exec_of (hist s) X <= 0 ->
  (0 < code \/ rows_of X (htxs s') <> [] -> has_batch (hist s) X = true) ->
  (forall a t, get_bal (bal s') a t =
     get_bal (bal s) a t + (if 0 <? code then rows_effect (burn_addr c code) a t (rows_of X (htxs s')) else 0)) ->
  hist_ok s -> hist_ok s'.
Proof.
  intros Hh Hnot Hle Hhas Hbal Hok.
  refine (hist_ok_one_hash s s' X Hnot _ _ _ Hok).
  - rewrite Hh. apply only_mark.
  - intros H. rewrite Hh, has_batch_mark. apply Hhas. right; exact H.
  - intros a t _. rewrite !(sum_counted_uniform _ a t X _ (rows_of_hash X _)), (Hbal a t).
    destruct (Z.ltb_spec 0 (exec_of (hist s) X)); [lia|].
    destruct (Z.ltb_spec 0 code) as [Hc|Hc].
    + rewrite Hh, (exec_of_mark_same _ _ _ (Hhas (or_introl Hc))). destruct (Z.ltb_spec 0 code); lia.
    + destruct (has_batch (hist s) X) eqn:E.
      * rewrite Hh, (exec_of_mark_same _ _ _ E). destruct (Z.ltb_spec 0 code); lia.
      * rewrite Hh, (mark_exec_fresh _ _ _ E), (exec_of_none _ _ E). cbn. lia.
Qed.

(* [apply_entry_fresh] with its cases folded into the status code, as the invariant proofs consume it *)
Lemma apply_entry_new h s order e txs s' :
  0 < h -> apply_entry c h s order e = Ok s' ->
  entry_valid_at c e h = Some txs -> is_replay s (e_hash e) = false -> hist_has s (e_hash e) = false ->
  rows_of (e_hash e) (htxs s) = [] ->
  exists code,
    hist s' = hist s ++ [batch_row e h order code] /\
    rows_not (e_hash e) (htxs s') = rows_not (e_hash e) (htxs s) /\
    (forall a t, get_bal (bal s') a t =
       get_bal (bal s) a t + (if 0 <? code then rows_effect (burn_addr c code) a t (rows_of (e_hash e) (htxs s')) else 0)) /\
    (has_conversions txs = true -> code = 0 /\ rows_of (e_hash e) (htxs s') = pend_rows (e_hash e) 0 txs).
Proof.
  intros Hh H Ev Er Eh Hrows.
  destruct (apply_entry_fresh c h s order e txs s' H Ev Er Eh Hrows) as (N & [(Hc & _ & _ & R3 & R4)|(R1 & R2 & [R3|[Hc R3]])]);
    [exists h|exists 0|exists (-1)]; (split; [exact R3|]; split; [exact N|]; split; [intros a t|]).
  - destruct (Z.ltb_spec 0 h); [apply R4|lia].
  - congruence.
  - rewrite R2. cbn. lia.
  - auto.
  - rewrite R2. cbn. lia.
  - congruence.
Qed.

Theorem hist_ok_apply_entry h s order e s' :
  0 < h -> apply_entry c h s order e = Ok s' -> hist_ok s -> hist_ok s'.
Proof.
  intros Hh H Hok. pose proof H as H0.
  apply apply_entry_inv in H as [->|(txs & s1 & Ev & Er & Eh & _)]; [exact Hok|].
  pose proof (rows_have_batch_none s _ (proj2 Hok) Eh) as Hrows.
  destruct (apply_entry_new h s order e txs s' Hh H0 Ev Er Eh Hrows) as (code & A1 & A2 & A3 & _).
  (* the hash is new: its status is what its batch row says, and no row of it counted before *)
  destruct (exec_of_snoc_new _ (batch_row e h order code) Eh) as [Hex HbX]. rewrite <- A1 in Hex, HbX.
  refine (hist_ok_one_hash s s' (e_hash e) A2 _ (fun _ => HbX) _ Hok).
  - rewrite A1. apply only_snoc. reflexivity.
  - intros a t _. rewrite Hrows, sum_counted_nil, (sum_counted_uniform _ a t _ _ (rows_of_hash _ _)).
    cbn [hb_hash hb_exec batch_row] in Hex. rewrite Hex, (A3 a t). lia.
Qed.

Theorem hist_ok_apply_tx_block h s es s' :
  0 < h -> apply_tx_block c h s es = Ok s' -> hist_ok s -> hist_ok s'.
Proof.
  intros Hh H Hok. refine (apply_tx_block_invariant c hist_ok h es _ s s' Hok H).
  intros s0 i e s1 _ Hp He. exact (hist_ok_apply_entry h s0 i e s1 Hh He Hp).
Qed.

(* [apply_held_history] with its cases folded into the status code, as the invariant proofs consume it *)
Definition held_outcome (cur : Z) (rates avgs : gmap ticker Z) (s : db) (e : entry) (txs : list tx) (s' : db) : Prop :=
  (hist s' = hist s /\ htxs s' = htxs s /\ bal s' = bal s) \/
  exists code,
    hist s' = mark_exec (e_hash e) code (hist s) /\
    rows_not (e_hash e) (htxs s') = rows_not (e_hash e) (htxs s) /\
    (forall a t, get_bal (bal s') a t =
       get_bal (bal s) a t + (if 0 <? code then rows_effect (burn_addr c code) a t (rows_of (e_hash e) (htxs s')) else 0)) /\
    ( (code < 0 /\ htxs s' = htxs s) \/
      (code = cur /\ txs <> [] /\ apply_batch c cur s (e_hash e) txs rates avgs = BApplied s') ).
Lemma apply_held_step cur rates avgs s e hh s' isp txs :
  0 < cur ->
  apply_held c cur rates avgs s e hh = Ok (s', isp) ->
  entry_valid_at c e hh = Some txs -> no_deferred c cur txs = true -> convs_fit c cur rates avgs txs = true ->
  rows_of (e_hash e) (htxs s) = map fst (history_rows_of (e_hash e) txs) ->
  isp = false /\ held_outcome cur rates avgs s e txs s'.
Proof.
  intros Hcur H Hv Hnd Hfit Hrows.
  destruct (apply_held_history c cur rates avgs s e hh s' isp txs H Hv Hnd Hfit Hrows)
    as (Hisp & [(Eb & _ & R2 & R3 & R4)|(R1 & R2 & [R3|(code & Hcode & R3)])]); (split; [exact Hisp|]).
  - destruct txs as [|t0 txs0].
    + (* an empty batch: recordBatch does nothing *)
      left. apply apply_batch_applied_is_record in Eb. cbn in Eb. inversion Eb; subst. auto.
    + right. exists cur. split; [exact R3|]. split; [exact R2|].
      split; [intros a t; destruct (Z.ltb_spec 0 cur); [apply R4|lia]|]. right. split; [reflexivity|]. split; [discriminate|exact Eb].
  - left. auto.
  - right. exists code. split; [exact R3|]. split; [rewrite R1; reflexivity|].
    split; [intros a t; destruct (Z.ltb_spec 0 code); [lia|]; rewrite R2; lia|]. left. auto.
Qed.

(* [exec_of (hist s) (e_hash e) <= 0]: the held batch did not count as executed before this block looks at it
   (at chain level this is the at-most-once property of the holding window, C06) *)
Lemma hist_ok_held_outcome cur rates avgs s e txs s' :
  held_outcome cur rates avgs s e txs s' ->
  rows_of (e_hash e) (htxs s) = map fst (history_rows_of (e_hash e) txs) ->
  exec_of (hist s) (e_hash e) <= 0 ->
  hist_ok s -> hist_ok s'.
Proof.
  intros [(R3 & R1 & R2)|(code & R3 & R2 & R4 & D)] Hrows Hle Hok.
  - apply (hist_ok_bal_special s s'); [exact R3|exact R1|intros a t _; rewrite R2; reflexivity|exact Hok].
  - refine (hist_ok_mark_step s s' (e_hash e) code R3 R2 Hle _ R4 Hok). intros Hc.
    apply (rows_have_batch_some s _ (proj2 Hok)). destruct D as [[Hneg Hx]|(_ & Hne & _)].
    + destruct Hc as [Hc|Hc]; [lia|rewrite Hx in Hc; exact Hc].
    + rewrite Hrows, history_rows_of_pend. destruct txs; [congruence|discriminate].
Qed.
Theorem hist_ok_apply_held cur rates avgs s e hh s' isp txs :
  0 < cur ->
  apply_held c cur rates avgs s e hh = Ok (s', isp) ->
  entry_valid_at c e hh = Some txs ->
  no_deferred c cur txs = true ->
  convs_fit c cur rates avgs txs = true ->
  rows_of (e_hash e) (htxs s) = map fst (history_rows_of (e_hash e) txs) ->
  exec_of (hist s) (e_hash e) <= 0 ->
  hist_ok s -> hist_ok s'.
Proof.
  intros Hcur H Hv Hnd Hfit Hrows.
  exact (hist_ok_held_outcome _ _ _ _ _ _ _ (proj2 (apply_held_step cur rates avgs s e hh s' isp txs Hcur H Hv Hnd Hfit Hrows)) Hrows).
Qed.

(* [Forall (fun r => 0 < exec_of (hist s') (ht_hash r)) rows]: the hash of every inserted row counts as executed
   in the resulting table — true when the hash is new and the height positive, or when the hash is already
   recorded as executed; false when it collides with a pending or rejected entry *)
Lemma hist_ok_coinbase_writer s s' R B :
  moved s s' R B ->
  Forall (fun r => ht_action r = 3 \/ ht_action r = 4) R ->
  Forall (fun r => 0 < exec_of (hist s') (ht_hash r)) R ->
  hist_ok s -> hist_ok s'.
Proof.
  intros M Hact Hex Hok. apply moved_history in M as (Hx & Hh & Hbal).
  refine (hist_ok_append s s' R B Hh Hx _ _ Hok).
  - eapply Forall_impl; [|exact Hex]. cbn. intros r Hr. apply exec_of_pos_has_batch; exact Hr.
  - intros a t _. rewrite sum_counted_coinbase; [apply (Hbal 0)|].
    rewrite Forall_forall in *. intros r Hr. split; [apply Hact|apply Hex]; exact Hr.
Qed.

Definition paired (R : list htx) (B : list hbatch) : Prop :=
  Forall (fun r => exists b, In b B /\ hb_hash b = ht_hash r /\ 0 < hb_exec b) R.
Lemma paired_exec l R B : NoDup (map hb_hash (l ++ B)) -> paired R B -> Forall (fun r => 0 < exec_of (l ++ B) (ht_hash r)) R.
Proof.
  intros Hnd. apply Forall_impl. intros r (b & Hb & <- & Hp). rewrite (exec_of_nodup _ b Hnd); [exact Hp|].
  apply in_or_app. right; exact Hb.
Qed.
Lemma paired_hashes R B : paired R B -> Forall (fun r => In (ht_hash r) (map hb_hash B)) R.
Proof. apply Forall_impl. intros r (b & Hb & <- & _). apply in_map; exact Hb. Qed.
Lemma paired_app R1 B1 R2 B2 : paired R1 B1 -> paired R2 B2 -> paired (R1 ++ R2) (B1 ++ B2).
Proof.
  intros H1 H2. apply Forall_app.
  split; [eapply Forall_impl; [|exact H1]|eapply Forall_impl; [|exact H2]]; intros r (b & Hb & E); exists b; (split; [apply in_or_app; auto|exact E]).
Qed.

(* what every coinbase-style writer does, and any sequence of them *)
Definition cwrites (s s' : db) : Prop :=
  exists R B, moved s s' R B /\ paired R B /\ Forall (fun r => ht_action r = 3 \/ ht_action r = 4) R.
Global Instance cwrites_po : PreOrder cwrites.
Proof.
  split.
  - intros s. exists [], []. split; [apply moved_refl|split; constructor].
  - intros s s1 s2 (R1 & B1 & M1 & P1 & A1) (R2 & B2 & M2 & P2 & A2). exists (R1 ++ R2), (B1 ++ B2).
    split; [exact (moved_trans _ _ _ _ _ _ _ M1 M2)|]. split; [exact (paired_app _ _ _ _ P1 P2)|apply Forall_app; auto].
Qed.

(* with distinct hashes in the resulting table the hash of every inserted row is new, so its status is the one
   the writer set *)
Lemma hist_ok_cwrites s s' : cwrites s s' -> NoDup (map hb_hash (hist s')) -> hist_ok s -> hist_ok s'.
Proof.
  intros (R & B & M & P & A) Hnd. apply (hist_ok_coinbase_writer s s' R B M A).
  rewrite (proj1 (proj2 (moved_history _ _ _ _ M))) in *. exact (paired_exec _ _ _ Hnd P).
Qed.

Lemma winner_rows_action ws : Forall (fun r => ht_action r = 3 \/ ht_action r = 4) (winner_rows ws).
Proof.
  unfold winner_rows. apply Forall_forall. intros r Hr. apply in_flat_map in Hr as (w & _ & Hr).
  destruct (w_addr w); [|contradiction]. destruct Hr as [<-|[]]. left; reflexivity.
Qed.
Lemma burn_rows_action fs : Forall (fun r => ht_action r = 3 \/ ht_action r = 4) (burn_rows fs).
Proof.
  unfold burn_rows. apply Forall_forall. intros r Hr. apply in_flat_map in Hr as (f & _ & Hr).
  destruct (is_burn f) as [[a v]|]; [|contradiction]. destruct Hr as [<-|[]]. right; reflexivity.
Qed.
Lemma dev_rows_from_action after h l : forall i j, Forall (fun r => ht_action r = 3 \/ ht_action r = 4) (dev_rows_from after h i j l).
Proof.
  induction l as [|[[[a b] pre] post] l IH]; intros i j; cbn [dev_rows_from]; constructor; [left; reflexivity|apply IH].
Qed.
Lemma winner_paired ts ws : Forall (fun w => 0 < w_height w) ws -> paired (winner_rows ws) (winner_batches ts ws).
Proof.
  intros Hpos. rewrite Forall_forall in Hpos. apply Forall_forall. intros r Hr. apply in_flat_map in Hr as (w & Hw & Hr).
  destruct (w_addr w) as [a|] eqn:Ea; [|contradiction]. destruct Hr as [<-|[]].
  eexists. split; [apply in_flat_map; exists w; rewrite Ea; split; [exact Hw|left; reflexivity]|]. split; [reflexivity|exact (Hpos w Hw)].
Qed.
Lemma burn_paired h fs : 0 < h -> paired (burn_rows fs) (burn_batches h fs).
Proof.
  intros Hh. apply Forall_forall. intros r Hr. apply in_flat_map in Hr as (f & Hf & Hr).
  destruct (is_burn f) as [[a v]|] eqn:Eb; [|contradiction]. destruct Hr as [<-|[]].
  eexists. split; [apply in_flat_map; exists f; rewrite Eb; split; [exact Hf|left; reflexivity]|]. split; [reflexivity|exact Hh].
Qed.
Lemma dev_paired after h ts l : 0 < h -> forall i j, paired (dev_rows_from after h i j l) (dev_batches_from h ts j l).
Proof.
  intros Hh. induction l as [|[[[a bits] pre] post] l IH]; intros i j; cbn [dev_rows_from dev_batches_from]; constructor.
  - eexists. split; [left; reflexivity|]. split; [reflexivity|exact Hh].
  - eapply Forall_impl; [|apply IH]. intros r (b & Hb & E). exists b. split; [right; exact Hb|exact E].
Qed.

Lemma pay_winners_cwrites s ts ws s' :
  pay_winners s ts ws = Ok s' -> payouts_fit ws = true -> Forall (fun w => 0 < w_height w) ws -> cwrites s s'.
Proof.
  intros H Hfit Hpos. eexists _, _. split; [exact (pay_winners_moved s ts ws s' H Hfit)|].
  split; [exact (winner_paired ts ws Hpos)|apply winner_rows_action].
Qed.
Lemma apply_factoid_block_cwrites h s fs s' : 0 < h -> apply_factoid_block h s fs = Ok s' -> cwrites s s'.
Proof.
  intros Hh H. eexists _, _. split; [exact (apply_factoid_block_moved h s fs s' H)|].
  split; [exact (burn_paired h fs Hh)|apply burn_rows_action].
Qed.
Lemma developers_payouts_cwrites h ts s s' : 0 < h -> fst (developers_payouts c h ts s) = Ok s' -> cwrites s s'.
Proof.
  intros Hh H. eexists _, _. split; [exact (developers_payouts_moved c h ts s s' H)|].
  split; [exact (dev_paired _ h ts _ Hh 0 1)|apply dev_rows_from_action].
Qed.
(* the staking payout first copies the balances into the snapshot tables *)
Lemma snapshot_payouts_cwrites h ts rates s s' :
  0 < h -> snapshot_payouts c h ts rates s = Ok s' -> cwrites (set_snaps s (bal s) (snap_cur s)) s'.
Proof.
  intros Hh H. destruct (snapshot_payouts_moved c h ts rates s s' H) as (rows & B & M & F & HB).
  exists rows, B. split; [exact M|]. split.
  - destruct HB as [[-> ->]| ->]; [constructor|]. eapply Forall_impl; [|exact F]. intros r (Hr & _).
    eexists. split; [left; reflexivity|]. split; [symmetry; exact Hr|exact Hh].
  - eapply Forall_impl; [|exact F]. intros r (_ & Hr & _). left; exact Hr.
Qed.

(* a sufficient condition for the side condition of hist_ok_coinbase_writer *)
Lemma exec_of_fresh_append l B hs : has_batch l hs = false -> 0 < exec_of B hs -> 0 < exec_of (l ++ B) hs.
Proof. intros H1 H2. rewrite (exec_of_app_new _ _ _ H1). exact H2. Qed.

Lemma special_mint : special_addr GlobalMintAddress = true.
Proof. vm_compute. reflexivity. Qed.

Lemma hist_ok_special_cell s s' a t v :
  credited s s' [((a, t), v)] -> special_addr a = true -> hist s' = hist s -> htxs s' = htxs s -> hist_ok s -> hist_ok s'.
Proof.
  intros Hc Ha Hh Hx. apply (hist_ok_bal_special s s' Hh Hx). intros a' t' Hsp.
  rewrite (Hc a' t'), effect_on_cons, effect_on_nil. cbn [fst snd].
  destruct (Z.eqb_spec a a') as [<-|N]; [congruence|]. cbn. lia.
Qed.

Theorem hist_ok_mint_tokens s s' : mint_tokens s = Ok s' -> hist_ok s -> hist_ok s'.
Proof.
  unfold mint_tokens. intros H Hok. refine (fold_res_invariant hist_ok _ _ _ s s' Hok H).
  intros s0 m s1 Hok0 Hs. pose proof (credited_add _ _ _ _ _ Hs) as C. apply add_to_balance_ok in Hs as (_ & _ & ->).
  exact (hist_ok_special_cell _ _ _ _ _ C special_mint eq_refl eq_refl Hok0).
Qed.

Lemma sub_ignoring_special s a t v s' :
  special_addr a = true -> sub_ignoring_txerr s a t v = Ok s' -> hist_ok s -> hist_ok s'.
Proof.
  intros Ha H Hok. unfold sub_ignoring_txerr in H.
  destruct (sub_from_balance s a t v) as [s1| |code] eqn:E; inversion H; subst; [|exact Hok].
  pose proof (credited_sub _ _ _ _ _ E) as C. apply sub_from_balance_ok in E as (_ & _ & _ & ->).
  exact (hist_ok_special_cell _ _ _ _ _ C Ha eq_refl eq_refl Hok).
Qed.

Theorem hist_ok_nullify_minted cm s s' : nullify_minted cm s = Ok s' -> hist_ok s -> hist_ok s'.
Proof.
  unfold nullify_minted. intros H Hok. refine (fold_res_invariant hist_ok _ _ _ s s' Hok H).
  intros s0 m s1 Hok0 Hs. exact (sub_ignoring_special _ _ _ _ _ special_mint Hs Hok0).
Qed.

Lemma special_burn : special_addr GlobalBurnAddress = true.
Proof. vm_compute. reflexivity. Qed.
Lemma special_old_burn : special_addr GlobalOldBurnAddress = true.
Proof. vm_compute. reflexivity. Qed.

Lemma hist_ok_insert_hbatch s b s' : insert_hbatch s b = Ok s' -> hist_ok s -> hist_ok s'.
Proof.
  intros H. apply insert_hbatch_ok in H as [_ ->].
  apply (hist_ok_append _ _ [] [b]); [reflexivity|symmetry; apply app_nil_r|constructor|].
  intros a t _. rewrite sum_counted_nil. cbn [bal set_hist]. lia.
Qed.
Lemma hist_ok_zero_row s r lk s' :
  insert_htx s r lk = Ok s' -> has_batch (hist s) (ht_hash r) = true ->
  (forall burn a t, effect_on a t (row_effect burn r) = 0) -> hist_ok s -> hist_ok s'.
Proof.
  intros H Hb Hz. apply insert_htx_ok in H as [_ ->].
  apply (hist_ok_append _ _ [r] []); [symmetry; apply app_nil_r|reflexivity|constructor; [exact Hb|constructor]|].
  intros a t _. rewrite sum_counted_cons, sum_counted_nil. unfold counted. cbn [bal set_htxs]. destruct (0 <? _); [rewrite Hz|]; lia.
Qed.

(* NullifyBurnAddress: debits a special address; before 2.0.2 it also writes batch rows (executed at h) and
   coinbase rows of amount 0 at that special address: whatever their status, they stand for nothing *)
Theorem hist_ok_nullify_burn cm h ts s : hist_ok s -> hist_ok (nullify_burn c cm h ts s).
Proof.
  apply (nullify_burn_ind c (fun x y => hist_ok x -> hist_ok y)); cbv zeta.
  - intros s0 t s1. apply sub_ignoring_special. destruct (_ <=? h); [apply special_burn|apply special_old_burn].
  - intros s0 j s1. apply hist_ok_insert_hbatch.
  - intros s0 i j t s1 s2 H1 H2 Hok. apply (hist_ok_zero_row _ _ _ _ H2); [exact (hist_has_insert_hbatch _ _ _ H1)| |].
    + intros burn a' t'. rewrite row_effect_coinbase, effect_on_cons, effect_on_nil. cbn [fst snd]. destruct (_ && _); reflexivity.
    + exact (hist_ok_insert_hbatch _ _ _ H1 Hok).
Qed.

Lemma hist_ok_frame s s' : hist s' = hist s -> htxs s' = htxs s -> bal s' = bal s -> hist_ok s -> hist_ok s'.
Proof. intros H1 H2 H3. apply hist_ok_bal_special; [exact H1|exact H2|]. intros a t _. rewrite H3. reflexivity. Qed.

Lemma hist_ok_set_snaps s cu pa : hist_ok s -> hist_ok (set_snaps s cu pa).
Proof. apply hist_ok_frame; reflexivity. Qed.
Lemma hist_ok_insert_grade h s v s' : insert_grade h s v = Ok s' -> hist_ok s -> hist_ok s'.
Proof. intros H. apply insert_grade_shape in H as (? & ? & ->). apply hist_ok_frame; reflexivity. Qed.
Lemma hist_ok_insert_rates cm h s a ph s' : insert_rates cm h s a ph = Ok s' -> hist_ok s -> hist_ok s'.
Proof. intros H. apply insert_rates_shape in H as (_ & ? & -> & _). apply hist_ok_frame; reflexivity. Qed.
Lemma hist_ok_insert_bank s h a s' : insert_bank s h a = Ok s' -> hist_ok s -> hist_ok s'.
Proof. intros H. apply insert_bank_ok in H as [_ ->]. apply hist_ok_frame; reflexivity. Qed.
Lemma hist_ok_update_bank s h u r s' : update_bank s h u r = Ok s' -> hist_ok s -> hist_ok s'.
Proof. intros H. apply update_bank_ok in H as (? & ? & ? & _ & ->). apply hist_ok_frame; reflexivity. Qed.
Lemma hist_ok_insert_synced s h s' : insert_synced s h = Ok s' -> hist_ok s -> hist_ok s'.
Proof. intros H. apply insert_synced_shape in H as (_ & ->). apply hist_ok_frame; reflexivity. Qed.

(* recordPegnetRequests when no batch joined pegConversions: only the bank row moves *)
Lemma hist_ok_record_peg_requests_none h s rates avgs bankamt bh s' :
  record_peg_requests c h s [] rates avgs bankamt bh = Ok s' -> hist_ok s -> hist_ok s'.
Proof.
  rewrite record_peg_requests_nil. destruct (_ <=? bh); [apply hist_ok_update_bank|]. intros H; inversion H; subst; auto.
Qed.
End WithCfg.

(* the first block of the examples: one factoid transaction on the empty database *)
Lemma hist_ok_first_factoid_block c h f s1 : 0 < h -> apply_factoid_block h genesis [f] = Ok s1 -> hist_ok c s1.
Proof.
  intros Hh H. apply (hist_ok_cwrites c genesis s1 (apply_factoid_block_cwrites h _ _ _ Hh H)); [|apply hist_ok_genesis].
  destruct (apply_factoid_block_history h genesis [f] s1 H) as (_ & -> & _). unfold burn_batches. cbn [hist genesis empty_db flat_map app].
  destruct (is_burn f); repeat constructor; intros [].
Qed.

(* the predicate holds on a concrete non-trivial state built by the writers, and the
   hypotheses of the holding-path lemma are satisfiable there *)
Definition ok_or {A} (d : A) (r : res A) : A := match r with Ok a => a | _ => d end.
(* that a run succeeds is a yes/no question: answering it by evaluation does not read the state back *)
Lemma ok_or_ok {A} (d : A) r : match r with Ok _ => True | _ => False end -> r = Ok (ok_or d r).
Proof. destruct r; [reflexivity|contradiction..]. Qed.
(* alice burns 100 FCT (101); transfers 30 to bob and asks for a conversion, the transfer repeated (102); an
   overdraft (103); then the rated block 104 looks at the held conversion *)
Definition hx_s1 : db := ok_or genesis (apply_factoid_block 101 genesis [ex_burn 501 100]).
Definition hx_s2 : db := ok_or genesis (apply_tx_block ex_cfg 102 hx_s1 [ex_transfer 601 30; ex_conversion 602 20; ex_transfer 601 30]).
Definition hx_s3 : db := ok_or genesis (apply_tx_block ex_cfg 103 hx_s2 [ex_transfer 603 1000]).
Definition hx_s4 : db := fst (ok_or (genesis, false) (apply_held ex_cfg 104 ex_rates ex_rates hx_s3 (ex_conversion 602 20) 102)).
Definition hx_s5 : db := ok_or genesis (pay_winners hx_s4 1104 (v_winners (ex_verdict 104))).

Example hist_ok_example :
  hist_ok ex_cfg hx_s3 /\
  (* the hypotheses of hist_ok_apply_held at that state *)
  apply_held ex_cfg 104 ex_rates ex_rates hx_s3 (ex_conversion 602 20) 102 = Ok (hx_s4, false) /\
  entry_valid_at ex_cfg (ex_conversion 602 20) 102 = Some ex_conv_txs /\
  no_deferred ex_cfg 104 ex_conv_txs = true /\
  convs_fit ex_cfg 104 ex_rates ex_rates ex_conv_txs = true /\
  rows_of 602 (htxs hx_s3) = map fst (history_rows_of 602 ex_conv_txs) /\
  exec_of (hist hx_s3) 602 <= 0 /\
  (* its conclusion, the winners' step after it, and two cells read both ways *)
  hist_ok ex_cfg hx_s4 /\ hist_ok ex_cfg hx_s5 /\
  get_bal (bal hx_s5) alice PTickerUSD = 80 /\ hist_sum ex_cfg hx_s5 alice PTickerUSD = 80 /\
  get_bal (bal hx_s5) alice PTickerFCT = 50 /\ hist_sum ex_cfg hx_s5 alice PTickerFCT = 50 /\
  get_bal (bal hx_s5) bob PTickerPEG = 5 /\ hist_sum ex_cfg hx_s5 bob PTickerPEG = 5.
Proof.
  assert (E1 : apply_factoid_block 101 genesis [ex_burn 501 100] = Ok hx_s1) by (apply (ok_or_ok genesis); vm_compute; exact I).
  assert (E2 : apply_tx_block ex_cfg 102 hx_s1 [ex_transfer 601 30; ex_conversion 602 20; ex_transfer 601 30] = Ok hx_s2)
    by (apply (ok_or_ok genesis); vm_compute; exact I).
  assert (E3 : apply_tx_block ex_cfg 103 hx_s2 [ex_transfer 603 1000] = Ok hx_s3) by (apply (ok_or_ok genesis); vm_compute; exact I).
  assert (E4 : apply_held ex_cfg 104 ex_rates ex_rates hx_s3 (ex_conversion 602 20) 102 = Ok (hx_s4, false)).
  { destruct (ok_witness (apply_held ex_cfg 104 ex_rates ex_rates hx_s3 (ex_conversion 602 20) 102) (fun r => snd r = false))
      as ([s4 isp] & E & Hisp); [vm_compute; reflexivity|].
    cbn in Hisp. subst isp. unfold hx_s4. rewrite E. reflexivity. }
  assert (E5 : pay_winners hx_s4 1104 (v_winners (ex_verdict 104)) = Ok hx_s5) by (apply (ok_or_ok genesis); vm_compute; exact I).
  assert (H1 : hist_ok ex_cfg hx_s1) by (refine (hist_ok_first_factoid_block ex_cfg 101 _ hx_s1 _ E1); lia).
  assert (H2 : hist_ok ex_cfg hx_s2) by (refine (hist_ok_apply_tx_block ex_cfg 102 hx_s1 _ hx_s2 _ E2 H1); lia).
  assert (H3 : hist_ok ex_cfg hx_s3) by (refine (hist_ok_apply_tx_block ex_cfg 103 hx_s2 _ hx_s3 _ E3 H2); lia).
  assert (V : entry_valid_at ex_cfg (ex_conversion 602 20) 102 = Some ex_conv_txs) by (vm_compute; reflexivity).
  assert (ND : no_deferred ex_cfg 104 ex_conv_txs = true) by (vm_compute; reflexivity).
  assert (CF : convs_fit ex_cfg 104 ex_rates ex_rates ex_conv_txs = true) by (vm_compute; reflexivity).
  assert (RW : rows_of 602 (htxs hx_s3) = map fst (history_rows_of 602 ex_conv_txs)) by (vm_compute; reflexivity).
  assert (LE : exec_of (hist hx_s3) 602 <= 0) by (vm_compute; discriminate).
  assert (H4 : hist_ok ex_cfg hx_s4) by (refine (hist_ok_apply_held ex_cfg 104 _ _ hx_s3 _ 102 hx_s4 false _ _ E4 V ND CF RW LE H3); lia).
  assert (H5 : hist_ok ex_cfg hx_s5).
  { refine (hist_ok_coinbase_writer ex_cfg hx_s4 hx_s5 _ _ (pay_winners_moved hx_s4 1104 _ hx_s5 E5 _) (winner_rows_action _) _ H4); [vm_compute; reflexivity|].
    apply Forall_forall. intros r [<-|[]]. vm_compute. reflexivity. }
  split; [exact H3|]. split; [exact E4|]. split; [exact V|]. split; [exact ND|]. split; [exact CF|].
  split; [exact RW|]. split; [exact LE|]. split; [exact H4|]. split; [exact H5|].
  repeat match goal with |- _ /\ _ => split; [vm_compute; reflexivity|] end. vm_compute; reflexivity.
Qed.

(* why the side condition of the coinbase writers cannot be dropped
   a witness in the model's input space: an entry whose hash is the mock transaction id of the second developer
   payout of height 576 arrives earlier and is rejected (status -1, one row at index 0).  The developer payouts of
   576 still succeed (other height, other index), the developer is credited, but the first batch row of that hash
   says -1: the credited row does not count as executed, and the cell is not the replayed history *)
Definition cx_hash : hash := mock_hash_dev 2 576.
Definition cx_dev : addr := match dev_rewards with _ :: (a, _, _, _) :: _ => a | _ => 0 end.
Definition cx_s1 : db := ok_or genesis (apply_tx_block ex_cfg 102 genesis [ex_transfer cx_hash 30]).
Definition cx_s2 : db := ok_or genesis (fst (developers_payouts ex_cfg 576 1576 cx_s1)).

Example accounts_fails_on_hash_collision :
  apply_tx_block ex_cfg 102 genesis [ex_transfer cx_hash 30] = Ok cx_s1 /\
  fst (developers_payouts ex_cfg 576 1576 cx_s1) = Ok cx_s2 /\
  hist_ok ex_cfg cx_s1 /\ status_of cx_s1 cx_hash = [-1] /\
  special_addr cx_dev = false /\
  get_bal (bal cx_s2) cx_dev PTickerPEG = 38000000000 /\ hist_sum ex_cfg cx_s2 cx_dev PTickerPEG = 0 /\
  ~ accounts ex_cfg cx_s2.
Proof.
  assert (E1 : apply_tx_block ex_cfg 102 genesis [ex_transfer cx_hash 30] = Ok cx_s1) by (apply (ok_or_ok genesis); vm_compute; exact I).
  assert (E2 : fst (developers_payouts ex_cfg 576 1576 cx_s1) = Ok cx_s2) by (apply (ok_or_ok genesis); vm_compute; exact I).
  assert (H1 : hist_ok ex_cfg cx_s1) by (refine (hist_ok_apply_tx_block ex_cfg 102 genesis _ cx_s1 _ E1 (hist_ok_genesis ex_cfg)); lia).
  assert (Hs : special_addr cx_dev = false) by (vm_compute; reflexivity).
  assert (B : get_bal (bal cx_s2) cx_dev PTickerPEG = 38000000000) by (vm_compute; reflexivity).
  assert (S : hist_sum ex_cfg cx_s2 cx_dev PTickerPEG = 0) by (vm_compute; reflexivity).
  split; [exact E1|]. split; [exact E2|]. split; [exact H1|]. split; [vm_compute; reflexivity|].
  split; [exact Hs|]. split; [exact B|]. split; [exact S|].
  intros A. specialize (A cx_dev PTickerPEG Hs). rewrite B, S in A. discriminate.
Qed.

Print Assumptions hist_ok_apply_entry.
Print Assumptions hist_ok_apply_tx_block.
Print Assumptions hist_ok_apply_held.
Print Assumptions hist_ok_nullify_burn.
Print Assumptions hist_ok_mint_tokens.
Print Assumptions hist_ok_nullify_minted.
