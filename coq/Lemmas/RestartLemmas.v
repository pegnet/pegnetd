(* Lemmas/RestartLemmas.v — C09: the rolling-average cache never changes what a block does.
   Whatever the in-memory cache holds (as long as it was produced by earlier calls on this chain,
   or is empty as after a restart), the block is applied identically. *)
From Model Require Import Obs.
From Lemmas Require Import DbLemmas BlockLemmas ChainLemmas.
From Gen Require Import Consts.
From Coq Require Import Lia.
Open Scope Z_scope.

Lemma window_heights_le P h k : In k (window_heights P h) -> k <= h.
Proof. unfold window_heights. intros H. apply in_zrange_iff in H. lia. Qed.

Lemma omap_ext_in {X Y} (f g : X -> option Y) l : (forall x, In x l -> f x = g x) -> omap f l = omap g l.
Proof.
  induction l as [|x l IH]; intros H; cbn; [reflexivity|].
  rewrite (H x (or_introl eq_refl)). rewrite IH; [reflexivity|]. intros y Hy. apply H. right; exact Hy.
Qed.

Lemma compute_avgs_ext cm cm' P h :
  (forall k, k <= h -> rates cm' !! k = rates cm !! k) -> compute_avgs cm' P h = compute_avgs cm P h.
Proof.
  intros H. unfold compute_avgs.
  assert (E : forall t, samples cm' P h t = samples cm P h t).
  { intros t. unfold samples. apply omap_ext_in. intros k Hk. rewrite H; [reflexivity|]. eapply window_heights_le; exact Hk. }
  induction all_tickers as [|t l IH]; cbn [fold_right]; [reflexivity|]. rewrite IH, E. reflexivity.
Qed.

Lemma compute_avgs_0 cm P : compute_avgs cm P 0 = ∅.
Proof.
  unfold compute_avgs.
  assert (E : forall t, avg_of P (P / 2) (samples cm P 0 t) = 0).
  { intros t. unfold samples, window_heights.
    replace (Z.to_nat (0 - Z.max 1 (0 - P + 1) + 1)) with O by lia. cbn [zrange omap].
    unfold avg_of. destruct (_ <? _); reflexivity. }
  induction all_tickers as [|t l IH]; cbn [fold_right]; [reflexivity|]. rewrite IH, E. reflexivity.
Qed.

Section WithCfg.
Variable c : cfg.
Notation P := (c_AveragePeriod c).

(* a cache that earlier calls on this chain may have left behind: its averages are those of its
   height, and that height is below every block still to come *)
Definition cache_ok (cm : db) (mem : avgcache) (hnext : Z) : Prop :=
  ac_avgs mem = compute_avgs cm P (ac_height mem) /\ ac_height mem < hnext.

Lemma empty_cache_ok cm hnext : 0 < hnext -> cache_ok cm empty_cache hnext.
Proof. intros H. split; cbn [ac_avgs ac_height empty_cache]; [symmetry; apply compute_avgs_0|exact H]. Qed.

Lemma get_averages_ok cm mem hn hq :
  cache_ok cm mem hn -> fst (get_averages cm P mem hq) = compute_avgs cm P hq.
Proof.
  intros [Ha _]. unfold get_averages. destruct (Z.eqb_spec (ac_height mem) hq) as [<-|]; cbn [fst]; [exact Ha|reflexivity].
Qed.

Lemma get_averages_cache cm mem hq :
  snd (get_averages cm P mem hq) = mem \/ snd (get_averages cm P mem hq) = {| ac_height := hq; ac_avgs := compute_avgs cm P hq |}.
Proof. unfold get_averages. destruct (_ =? hq); cbn [snd]; auto. Qed.

(* what a block can do to the cache: leave it, or replace it by the averages of a height below
   the block's; only the holding pass of a rated block consults it *)
Lemma holding_phase_cache cm mem h ir r1 s s' mem' : 0 < h ->
  holding_phase c cm mem h ir r1 s = Done (s', mem') ->
  mem' = mem \/ exists h0, h0 < h /\ mem' = {| ac_height := h0; ac_avgs := compute_avgs cm P h0 |}.
Proof.
  intros Hh H. destruct ir; [|inversion H; auto]. apply holding_phase_rated in H as (s1 & _ & _ & ->).
  destruct (get_averages_cache cm mem (last_rated_below s1 h)) as [->| ->]; [auto|].
  right. eexists; split; [|reflexivity]. apply last_rated_below_bounds; exact Hh.
Qed.

Lemma sync_block_cache cm mem b s s' mem' :
  0 < b_height b -> sync_block c cm mem b s = Done (s', mem') ->
  mem' = mem \/ exists h0, h0 < b_height b /\ mem' = {| ac_height := h0; ac_avgs := compute_avgs cm P h0 |}.
Proof.
  intros Hh H. apply sync_block_inv in H as (s2 & g & gS & s3 & ir & [] & _ & _ & _ & _ & H); [left; apply H|].
  destruct H as (s4 & H & _). apply tx_phase_inv in H as [(_ & _ & ->)|(sa & r1 & sc & _ & H & _)]; [auto|].
  eapply holding_phase_cache; eassumption.
Qed.

Lemma odb_obind_ext {A B C} (r : outcome A) (f g : A -> outcome (B * C)) :
  (forall a, odb (f a) = odb (g a)) -> odb (obind r f) = odb (obind r g).
Proof. destruct r; cbn [obind odb]; auto. Qed.

(* two runs with the same database so far go on with the same program *)
Local Ltac same_db E x y :=
  destruct x as [[? ?]| | |], y as [[? ?]| | |]; cbn [odb fst] in E; try discriminate E; inversion E; subst; cbn [obind odb];
  try reflexivity.

(* the database a block produces does not depend on the cache, as long as the cache is sound:
   the two runs are the same program except in the holding phase, where both caches answer
   [compute_avgs] *)
Lemma holding_phase_mem_irrelevant cm mem1 mem2 hn h ir r1 s :
  cache_ok cm mem1 hn -> cache_ok cm mem2 hn ->
  odb (holding_phase c cm mem1 h ir r1 s) = odb (holding_phase c cm mem2 h ir r1 s).
Proof.
  intros C1 C2. unfold holding_phase. destruct ir; [|reflexivity]. apply odb_obind_ext. intros s1.
  pose proof (get_averages_ok cm mem1 hn (last_rated_below s1 h) C1) as G1.
  pose proof (get_averages_ok cm mem2 hn (last_rated_below s1 h) C2) as G2.
  destruct (get_averages cm P mem1 _) as [av1 mm1], (get_averages cm P mem2 _) as [av2 mm2]. cbn [fst] in G1, G2. subst.
  destruct (of_res _); reflexivity.
Qed.

Lemma tx_phase_mem_irrelevant cm mem1 mem2 hn b ir s :
  cache_ok cm mem1 hn -> cache_ok cm mem2 hn -> odb (tx_phase c cm mem1 b ir s) = odb (tx_phase c cm mem2 b ir s).
Proof.
  intros C1 C2. unfold tx_phase. cbv zeta. destruct (_ <=? _); [|reflexivity]. apply odb_obind_ext. intros [s1 r1].
  pose proof (holding_phase_mem_irrelevant cm mem1 mem2 hn (b_height b) ir r1 s1 C1 C2) as E.
  same_db E (holding_phase c cm mem1 (b_height b) ir r1 s1) (holding_phase c cm mem2 (b_height b) ir r1 s1).
  destruct (match b_tx b with Some _ => _ | None => _ end); reflexivity.
Qed.

Lemma sync_block_mem_irrelevant cm mem1 mem2 hn b s :
  cache_ok cm mem1 hn -> cache_ok cm mem2 hn ->
  odb (sync_block c cm mem1 b s) = odb (sync_block c cm mem2 b s).
Proof.
  intros C1 C2. rewrite !sync_block_phases. unfold sync_phases.
  apply odb_obind_ext; intros s2. apply odb_obind_ext; intros g. apply odb_obind_ext; intros gS.
  apply odb_obind_ext; intros [[s3 ir] en]. destruct en; [reflexivity|].
  pose proof (tx_phase_mem_irrelevant cm mem1 mem2 hn b ir s3 C1 C2) as E.
  same_db E (tx_phase c cm mem1 b ir s3) (tx_phase c cm mem2 b ir s3).
  destruct (payout_phase _ _ _ _ _); reflexivity.
Qed.

Lemma step_block_mem_irrelevant cm mem1 mem2 hn b :
  cache_ok cm mem1 hn -> cache_ok cm mem2 hn -> odb (step_block c cm mem1 b) = odb (step_block c cm mem2 b).
Proof.
  intros C1 C2. unfold step_block. cbv zeta.
  match goal with |- odb (obind (sync_block c cm mem1 b ?s) _) = _ =>
    pose proof (sync_block_mem_irrelevant cm mem1 mem2 hn b s C1 C2) as E;
    same_db E (sync_block c cm mem1 b s) (sync_block c cm mem2 b s) end.
  destruct (of_res (insert_synced _ (b_height b))); reflexivity.
Qed.

Lemma step_block_cache_ok cm mem hn b s' mem' :
  cache_ok cm mem hn -> hn <= b_height b -> 0 < b_height b ->
  step_block c cm mem b = Done (s', mem') -> cache_ok s' mem' (b_height b + 1).
Proof.
  intros [Ca Ch] Hle Hpos H.
  assert (Hext : forall hc, hc < b_height b -> compute_avgs s' P hc = compute_avgs cm P hc).
  { intros hc Hc. apply compute_avgs_ext. intros k Hk.
    eapply step_block_rates_only_own_height; [|exact H]. lia. }
  apply step_block_inv in H as (s1 & Hr & _).
  apply sync_block_cache in Hr; [|exact Hpos]. destruct Hr as [->|(h0 & Hh0 & ->)].
  - split; [rewrite Hext by lia; exact Ca|lia].
  - split; cbn [ac_avgs ac_height]; [rewrite Hext by lia; reflexivity|lia].
Qed.

Fixpoint heights_from (hn : Z) (bs : list block) : Prop :=
  match bs with [] => True | b :: bs' => hn <= b_height b /\ heights_from (b_height b + 1) bs' end.
Lemma heights_from_split pre : forall h b post, heights_from h (pre ++ b :: post) ->
  heights_from h pre /\ (forall x, In x pre -> b_height x < b_height b) /\ h <= b_height b /\
  heights_from (b_height b + 1) post.
Proof.
  induction pre as [|x pre IH]; intros h b post H; cbn [app heights_from] in *; destruct H as [Hle Hr].
  - split; [exact I|]. split; [intros ? []|]. split; assumption.
  - destruct (IH _ _ _ Hr) as (Ha & Hall & Hb & Hp).
    split; [split; assumption|]. split; [|split; [lia|exact Hp]].
    intros y [<-|Hy]; [lia|apply Hall; exact Hy].
Qed.

Lemma heights_from_ge bs h b : heights_from h bs -> In b bs -> h <= b_height b.
Proof. intros Hinc Hin. apply in_split in Hin as (pre & post & ->). apply heights_from_split in Hinc as (_ & _ & H & _). exact H. Qed.

Lemma heights_from_height_inj bs h b b' :
  heights_from h bs -> In b bs -> In b' bs -> b_height b = b_height b' -> b = b'.
Proof.
  intros Hinc Hb Hb' E. apply in_split in Hb as (pre & post & ->).
  destruct (heights_from_split _ _ _ _ Hinc) as (_ & Hpre & _ & Hpost).
  apply in_app_or in Hb' as [Hb'|[->|Hb']]; [specialize (Hpre _ Hb'); lia|reflexivity|].
  pose proof (heights_from_ge _ _ _ Hpost Hb'). lia.
Qed.

(* C09: however often and wherever the daemon is restarted (the cache dropped), the chain is
   replayed to the same database; pricing never depends on memory accumulated since start *)
Theorem restart_independent : forall bs hn cm mem1 mem2 R1 R2,
  0 < hn -> cache_ok cm mem1 hn -> cache_ok cm mem2 hn -> heights_from hn bs ->
  run_chain_restarts c R1 cm mem1 bs = run_chain_restarts c R2 cm mem2 bs.
Proof.
  induction bs as [|b bs IH]; intros hn cm mem1 mem2 R1 R2 Hpos C1 C2 Hh; cbn [run_chain_restarts]; [reflexivity|].
  destruct Hh as [Hle Hrest].
  set (m1 := if existsb (Z.eqb (b_height b)) R1 then empty_cache else mem1).
  set (m2 := if existsb (Z.eqb (b_height b)) R2 then empty_cache else mem2).
  assert (C1' : cache_ok cm m1 hn) by (unfold m1; destruct (existsb _ R1); [apply empty_cache_ok; exact Hpos|exact C1]).
  assert (C2' : cache_ok cm m2 hn) by (unfold m2; destruct (existsb _ R2); [apply empty_cache_ok; exact Hpos|exact C2]).
  pose proof (step_block_mem_irrelevant cm m1 m2 hn b C1' C2') as E.
  destruct (step_block c cm m1 b) as [[s1 n1]| | |] eqn:E1; destruct (step_block c cm m2 b) as [[s2 n2]| | |] eqn:E2;
    cbn [odb fst] in E; try discriminate; inversion E; subst; try reflexivity.
  apply (IH (b_height b + 1)); [lia| | |exact Hrest].
  - eapply step_block_cache_ok; [exact C1'|exact Hle|lia|exact E1].
  - eapply step_block_cache_ok; [exact C2'|exact Hle|lia|exact E2].
Qed.

Corollary restarts_do_not_matter bs hn cm R :
  0 < hn -> heights_from hn bs ->
  run_chain_restarts c R cm empty_cache bs = run_chain_restarts c [] cm empty_cache bs.
Proof. intros Hpos Hh. apply (restart_independent bs hn); auto using empty_cache_ok. Qed.
End WithCfg.
