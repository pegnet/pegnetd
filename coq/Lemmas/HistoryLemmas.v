(* Lemmas/HistoryLemmas.v — C17 (second sentence) and the block-level form of C04: the history
   tables written by the ledger functions account exactly for the balance changes they make.
   Transaction batches: record_txs / record_batch / apply_batch and the two callers apply_entry (a
   transfer-only batch applied in the block it arrives in) and apply_held (a held batch executed by a
   rated block); then the coinbase-style writers pay_winners, apply_factoid_block, developers_payouts,
   snapshot_payouts.  History.README.md says what a row stands for and where the side conditions come from. *)
From Model Require Import Block Examples.
From Lemmas Require Import ArithLemmas DbLemmas LedgerLemmas BlockLemmas IssuanceLedger StatusLemmas.
From Gen Require Import Consts.
From Coq Require Import Lia.
Open Scope Z_scope.
Open Scope list_scope.

Definition cell := (addr * ticker)%type.

(* the balance deltas an EXECUTED pn_history_transaction row stands for.  [burn] is the burn address
   in force at the height the batch was executed at (Ledger.burn_addr).
     1 transfer   : -from_amount on (from, from_asset); +amount on (output, from_asset) for every
                    output whose address is not the burn address
     2 conversion : -from_amount on (from, from_asset); +to_amount on (from, to_asset); and + every
                    recorded output on (output, from_asset) — the refund of a bank-era PEG request
                    (set_peg_request_amounts); the rows written by insert_history have no outputs
     3 coinbase, 4 burn : +to_amount on (from, to_asset)
   This is the row-by-row meaning used by the oracle Corr.Chain.history_balances. *)
Definition row_effect (burn : addr) (r : htx) : list (cell * Z) :=
  if ht_action r =? 1 then
    ((ht_from r, ht_from_asset r), - ht_from_amount r)
    :: map (fun o => ((fst o, ht_from_asset r), snd o)) (filter (fun o => negb (fst o =? burn)) (ht_outputs r))
  else if ht_action r =? 2 then
    ((ht_from r, ht_from_asset r), - ht_from_amount r)
    :: ((ht_from r, ht_to_asset r), ht_to_amount r)
    :: map (fun o => ((fst o, ht_from_asset r), snd o)) (ht_outputs r)
  else [((ht_from r, ht_to_asset r), ht_to_amount r)].

Definition effect_on (a : addr) (t : ticker) (l : list (cell * Z)) : Z :=
  fold_right (fun e acc => (if (fst (fst e) =? a) && (snd (fst e) =? t) then snd e else 0) + acc) 0 l.

Definition rows_effect (burn : addr) (a : addr) (t : ticker) (rows : list htx) : Z :=
  fold_right (fun r acc => effect_on a t (row_effect burn r) + acc) 0 rows.

Definition rows_of (hs : hash) (l : list htx) : list htx := filter (fun r => ht_hash r =? hs) l.
Definition rows_not (hs : hash) (l : list htx) : list htx := filter (fun r => negb (ht_hash r =? hs)) l.

(* UPDATE pn_history_txbatch SET executed = code WHERE entry_hash = hs, on the list *)
Definition mark_exec (hs : hash) (code : Z) (l : list hbatch) : list hbatch :=
  map (fun r => if hb_hash r =? hs
                then {| hb_hash := hb_hash r; hb_height := hb_height r; hb_order := hb_order r;
                        hb_ts := hb_ts r; hb_exec := code |}
                else r) l.

Lemma hist_set_executed s hs code : hist (set_executed s hs code) = mark_exec hs code (hist s).
Proof. reflexivity. Qed.
Lemma htxs_set_executed s hs code : htxs (set_executed s hs code) = htxs s.
Proof. reflexivity. Qed.

Lemma mark_exec_idem hs code code' l : mark_exec hs code (mark_exec hs code' l) = mark_exec hs code l.
Proof.
  unfold mark_exec. rewrite map_map. apply map_ext. intros r.
  destruct (hb_hash r =? hs) eqn:E; cbn [hb_hash]; rewrite E; reflexivity.
Qed.

Lemma mark_exec_hashes hs code l : map hb_hash (mark_exec hs code l) = map hb_hash l.
Proof. unfold mark_exec. rewrite map_map. apply map_ext. intros r. destruct (hb_hash r =? hs); reflexivity. Qed.

Lemma status_mark_exec hs code l :
  map hb_exec (filter (fun r => hb_hash r =? hs) (mark_exec hs code l)) =
  map (fun _ => code) (filter (fun r => hb_hash r =? hs) l).
Proof.
  induction l as [|r l IH]; [reflexivity|]. cbn [mark_exec map filter].
  destruct (hb_hash r =? hs) eqn:E; cbn [hb_hash]; rewrite E; cbn [map hb_exec]; [f_equal|]; exact IH.
Qed.

Lemma mark_exec_fresh hs code l : existsb (fun r => hb_hash r =? hs) l = false -> mark_exec hs code l = l.
Proof.
  induction l as [|r l IH]; [reflexivity|]. cbn [existsb mark_exec map]. intros H. apply orb_false_iff in H as [H1 H2].
  rewrite H1. f_equal. apply IH; exact H2.
Qed.
Lemma mark_exec_app hs code l1 l2 : mark_exec hs code (l1 ++ l2) = mark_exec hs code l1 ++ mark_exec hs code l2.
Proof. unfold mark_exec. apply map_app. Qed.

Lemma effect_on_cons a t e l :
  effect_on a t (e :: l) = (if (fst (fst e) =? a) && (snd (fst e) =? t) then snd e else 0) + effect_on a t l.
Proof. reflexivity. Qed.
Lemma effect_on_nil a t : effect_on a t [] = 0.
Proof. reflexivity. Qed.
Lemma effect_on_app a t l1 l2 : effect_on a t (l1 ++ l2) = effect_on a t l1 + effect_on a t l2.
Proof. apply fold_sum_app. Qed.

Lemma rows_effect_cons burn a t r l :
  rows_effect burn a t (r :: l) = effect_on a t (row_effect burn r) + rows_effect burn a t l.
Proof. reflexivity. Qed.
Lemma rows_effect_nil burn a t : rows_effect burn a t [] = 0.
Proof. reflexivity. Qed.
Lemma rows_effect_app burn a t l1 l2 :
  rows_effect burn a t (l1 ++ l2) = rows_effect burn a t l1 + rows_effect burn a t l2.
Proof. apply fold_sum_app. Qed.

Lemma rows_effect_split burn a t hs l :
  rows_effect burn a t l = rows_effect burn a t (rows_of hs l) + rows_effect burn a t (rows_not hs l).
Proof. apply fold_sum_filter. Qed.

Lemma rows_of_app hs l1 l2 : rows_of hs (l1 ++ l2) = rows_of hs l1 ++ rows_of hs l2.
Proof. unfold rows_of. apply filter_app. Qed.
Lemma rows_not_app hs l1 l2 : rows_not hs (l1 ++ l2) = rows_not hs l1 ++ rows_not hs l2.
Proof. unfold rows_not. apply filter_app. Qed.

Lemma rows_of_all hs l : Forall (fun r => ht_hash r = hs) l -> rows_of hs l = l /\ rows_not hs l = [].
Proof.
  unfold rows_of, rows_not. induction 1 as [|r l Hr _ [IH1 IH2]]; [auto|]. cbn [filter].
  apply Z.eqb_eq in Hr. rewrite Hr. cbn [negb]. rewrite IH1, IH2. auto.
Qed.
Lemma rows_of_none hs l : Forall (fun r => ht_hash r <> hs) l -> rows_of hs l = [] /\ rows_not hs l = l.
Proof.
  unfold rows_of, rows_not. induction 1 as [|r l Hr _ [IH1 IH2]]; [auto|]. cbn [filter].
  apply Z.eqb_neq in Hr. rewrite Hr. cbn [negb]. rewrite IH1, IH2. auto.
Qed.

(* [moved s s' R B]: nothing happened but this: rows were appended to the two history tables (with
   their lookup rows) and balances changed, by what the new transaction rows stand for, with
   whatever burn address they are read. *)
Definition credited (s s' : db) (d : list (cell * Z)) : Prop :=
  forall a t, get_bal (bal s') a t = get_bal (bal s) a t + effect_on a t d.
Definition moved (s s' : db) (R : list htx) (B : list hbatch) : Prop :=
  (exists m lks, s' = set_htxs (set_hist (set_bal s m) (hist s ++ B)) (htxs s ++ R) lks) /\
  forall burn a t, get_bal (bal s') a t = get_bal (bal s) a t + rows_effect burn a t R.

Lemma credited_same s s' : bal s' = bal s -> credited s s' [].
Proof. intros E a t. rewrite E, effect_on_nil. lia. Qed.
Lemma credited_trans s s1 s2 d1 d2 : credited s s1 d1 -> credited s1 s2 d2 -> credited s s2 (d1 ++ d2).
Proof. intros H1 H2 a t. rewrite (H2 a t), (H1 a t), effect_on_app. lia. Qed.
Lemma credited_cell s a t v : credited s (set_bal s (<[(a, t) := get_bal (bal s) a t + v]> (bal s))) [((a, t), v)].
Proof.
  intros a' t'. cbn [bal set_bal]. rewrite get_bal_insert_eqb, effect_on_cons, effect_on_nil. cbn [fst snd].
  destruct (Z.eqb_spec a a'), (Z.eqb_spec t t'); cbn [andb]; subst; lia.
Qed.
Lemma credited_add s a t v s' : add_to_balance s a t v = Ok s' -> credited s s' [((a, t), v)].
Proof. intros H. apply add_to_balance_ok in H as (_ & _ & ->). apply credited_cell. Qed.
Lemma credited_sub s a t v s' : sub_from_balance s a t v = SubOk s' -> credited s s' [((a, t), - v)].
Proof. intros H. apply sub_from_balance_ok in H as (_ & _ & _ & ->). apply credited_cell. Qed.
Lemma credited_fold {X} (f : db -> X -> res db) (D : X -> list (cell * Z)) (l : list X) :
  (forall s x s', In x l -> f s x = Ok s' -> credited s s' (D x)) ->
  forall s s', fold_left (fun r x => let? s0 := r in f s0 x) l (Ok s) = Ok s' -> credited s s' (flat_map D l).
Proof.
  intros Hf s s' H a t.
  rewrite (fold_res_sum (fun s0 => get_bal (bal s0) a t) (fun x => effect_on a t (D x)) f l (fun s0 x s1 Hin E => Hf s0 x s1 Hin E a t) s s' H).
  f_equal. symmetry. apply fold_sum_flat_map.
Qed.

Lemma moved_history s s' R B :
  moved s s' R B ->
  htxs s' = htxs s ++ R /\ hist s' = hist s ++ B /\
  forall burn a t, get_bal (bal s') a t = get_bal (bal s) a t + rows_effect burn a t R.
Proof. intros [(m & lks & ->) Hb]. repeat split. exact Hb. Qed.
Lemma moved_rest s s' R B : moved s s' R B -> rates s' = rates s /\ holding s' = holding s /\ rel s' = rel s.
Proof. intros [(m & lks & ->) _]. repeat split. Qed.
Lemma moved_refl s : moved s s [] [].
Proof.
  split; [exists (bal s), (lookups s); rewrite !app_nil_r; destruct s; reflexivity|].
  intros burn a t. rewrite rows_effect_nil. lia.
Qed.
Lemma moved_trans s s1 s2 R1 B1 R2 B2 : moved s s1 R1 B1 -> moved s1 s2 R2 B2 -> moved s s2 (R1 ++ R2) (B1 ++ B2).
Proof.
  intros [(m1 & l1 & ->) Z1] [(m2 & l2 & ->) Z2]. split.
  - exists m2, l2. cbn [hist htxs set_htxs set_hist set_bal]. rewrite !app_assoc. reflexivity.
  - intros burn a t. rewrite (Z2 burn), (Z1 burn), rows_effect_app. lia.
Qed.
Lemma moved_fold {X} (f : db -> X -> res db) (R : X -> list htx) (B : X -> list hbatch) (l : list X) :
  (forall s x s', In x l -> f s x = Ok s' -> moved s s' (R x) (B x)) ->
  forall s s', fold_left (fun r x => let? s0 := r in f s0 x) l (Ok s) = Ok s' -> moved s s' (flat_map R l) (flat_map B l).
Proof.
  induction l as [|x l IH]; intros Hstep s s' H; [inversion H; subst; apply moved_refl|].
  apply fold_res_cons in H as (s1 & E & H). cbn [flat_map].
  eapply moved_trans; [exact (Hstep _ _ _ (or_introl eq_refl) E)|].
  apply IH; [|exact H]. intros s0 x0 s2 Hin. apply Hstep. right; exact Hin.
Qed.

Lemma moved_hbatch s b s' : insert_hbatch s b = Ok s' -> moved s s' [] [b].
Proof.
  intros H. apply insert_hbatch_ok in H as [_ ->]. split; [exists (bal s), (lookups s); rewrite app_nil_r; reflexivity|].
  intros burn a t. rewrite rows_effect_nil. cbn [bal set_hist]. lia.
Qed.
Lemma moved_hbatch_htx s b s1 r lk s' :
  insert_hbatch s b = Ok s1 -> insert_htx s1 r lk = Ok s' -> (forall burn a t, effect_on a t (row_effect burn r) = 0) ->
  moved s s' [r] [b].
Proof.
  intros H1 H2 Hz. apply insert_hbatch_ok in H1 as [_ ->]. apply insert_htx_ok in H2 as [_ ->].
  split; [exists (bal s); eexists; reflexivity|].
  intros burn a t. rewrite rows_effect_cons, rows_effect_nil, Hz. cbn [bal set_htxs set_hist]. lia.
Qed.

Lemma htxs_insert_relation s a hs i t cv : htxs (insert_relation s a hs i t cv) = htxs s.
Proof. unfold insert_relation. destruct (existsb _ _); reflexivity. Qed.
Lemma hist_insert_relation s a hs i t cv : hist (insert_relation s a hs i t cv) = hist s.
Proof. unfold insert_relation. destruct (existsb _ _); reflexivity. Qed.

Definition pend_row (hs : hash) (idx : Z) (t : tx) : htx :=
  if is_conversion t
  then {| ht_hash := hs; ht_index := idx; ht_action := 2; ht_from := tx_addr t; ht_from_asset := tx_type t;
          ht_from_amount := tx_amt t; ht_to_asset := tx_conv t; ht_to_amount := 0; ht_outputs := [] |}
  else {| ht_hash := hs; ht_index := idx; ht_action := 1; ht_from := tx_addr t; ht_from_asset := tx_type t;
          ht_from_amount := tx_amt t; ht_to_asset := 0; ht_to_amount := 0;
          ht_outputs := map (fun tr => (tr_addr tr, tr_amt tr)) (tx_transfers t) |}.
Fixpoint pend_rows (hs : hash) (idx : Z) (txs : list tx) : list htx :=
  match txs with [] => [] | t :: rest => pend_row hs idx t :: pend_rows hs (idx + 1) rest end.

Fixpoint rows_from (row : Z -> tx -> htx) (idx : Z) (txs : list tx) : list htx :=
  match txs with [] => [] | t :: rest => row idx t :: rows_from row (idx + 1) rest end.
Lemma rows_from_ext (f g : Z -> tx -> htx) txs :
  (forall i t, In t txs -> f i t = g i t) -> forall idx, rows_from f idx txs = rows_from g idx txs.
Proof.
  induction txs as [|t txs IH]; intros H idx; [reflexivity|]. cbn [rows_from].
  rewrite (H idx t (or_introl eq_refl)), IH; [reflexivity|]. intros i t0 Hin. apply H. right; exact Hin.
Qed.
Lemma rows_from_Forall (P : Z -> htx -> Prop) row txs :
  (forall i t, P i (row i t)) -> (forall i r, P (i + 1) r -> P i r) -> forall idx, Forall (P idx) (rows_from row idx txs).
Proof.
  intros Hrow Hmono. induction txs as [|t txs IH]; intros idx; cbn [rows_from]; constructor; [apply Hrow|].
  eapply Forall_impl; [|apply IH]. apply Hmono.
Qed.
Lemma pend_rows_from hs txs : forall idx, pend_rows hs idx txs = rows_from (pend_row hs) idx txs.
Proof. induction txs as [|t txs IH]; intros idx; cbn [pend_rows rows_from]; [reflexivity|rewrite IH; reflexivity]. Qed.

Lemma pend_row_keys hs idx t : ht_hash (pend_row hs idx t) = hs /\ ht_index (pend_row hs idx t) = idx.
Proof. unfold pend_row. destruct (is_conversion t); split; reflexivity. Qed.

Lemma history_rows_of_pend hs txs : map fst (history_rows_of hs txs) = pend_rows hs 0 txs.
Proof.
  unfold history_rows_of.
  match goal with |- map fst (?g 0 txs) = _ => set (go := g) end.
  assert (G : forall l idx, map fst (go idx l) = pend_rows hs idx l).
  { induction l as [|t l IH]; intros idx; [reflexivity|].
    cbn [go map pend_rows]. fold go. rewrite IH. f_equal. unfold pend_row. destruct (is_conversion t); reflexivity. }
  apply G.
Qed.

Lemma pend_rows_hash hs txs idx : Forall (fun r => ht_hash r = hs) (pend_rows hs idx txs).
Proof. rewrite pend_rows_from. apply (rows_from_Forall (fun _ r => ht_hash r = hs)); [intros; apply pend_row_keys|auto]. Qed.
Lemma pend_rows_index hs txs idx : Forall (fun r => idx <= ht_index r) (pend_rows hs idx txs).
Proof.
  rewrite pend_rows_from. apply (rows_from_Forall (fun i r => i <= ht_index r)); [|intros; lia].
  intros i t. rewrite (proj2 (pend_row_keys hs i t)). lia.
Qed.

Definition batch_row (e : entry) (h order code : Z) : hbatch :=
  {| hb_hash := e_hash e; hb_height := h; hb_order := order; hb_ts := e_ts e; hb_exec := code |}.

Lemma insert_history_tables s e order h txs s1 :
  insert_history s e order h txs = Ok s1 ->
  hist s1 = hist s ++ [batch_row e h order 0] /\
  htxs s1 = htxs s ++ pend_rows (e_hash e) 0 txs /\ bal s1 = bal s /\ rel s1 = rel s /\ holding s1 = holding s.
Proof. intros H. apply insert_history_ok in H as (_ & lks & ->). rewrite history_rows_of_pend. repeat split. Qed.

Section WithCfg.
Variable c : cfg.

(* the amount Convert gives for a conversion (0 when it fails: such a batch is never recorded) *)
Definition conv_out (h : Z) (rates avgs : gmap ticker Z) (t : tx) : Z :=
  match conv_of c h rates avgs t with Some out => out | None => 0 end.

Definition exec_row (h : Z) (rates avgs : gmap ticker Z) (hs : hash) (idx : Z) (t : tx) : htx :=
  if is_conversion t
  then {| ht_hash := hs; ht_index := idx; ht_action := 2; ht_from := tx_addr t; ht_from_asset := tx_type t;
          ht_from_amount := tx_amt t; ht_to_asset := tx_conv t; ht_to_amount := conv_out h rates avgs t;
          ht_outputs := [] |}
  else pend_row hs idx t.
Fixpoint exec_rows (h : Z) (rates avgs : gmap ticker Z) (hs : hash) (idx : Z) (txs : list tx) : list htx :=
  match txs with [] => [] | t :: rest => exec_row h rates avgs hs idx t :: exec_rows h rates avgs hs (idx + 1) rest end.

(* no transaction of the batch is a PEG request whose output is deferred to recordPegnetRequests *)
Definition no_deferred (h : Z) (txs : list tx) : bool :=
  negb ((c_PegnetConversionLimitActivation c <=? h) && existsb is_peg_request txs).
(* the converted amounts survive the cast uint64(outputAmount) *)
Definition convs_fit (h : Z) (rates avgs : gmap ticker Z) (txs : list tx) : bool :=
  forallb (fun t => negb (is_conversion t) ||
                    match conv_of c h rates avgs t with Some out => wrap64 out =? out | None => true end) txs.

(* pn_rate holds uint64 columns: rates and averages are non-negative there *)
Lemma convs_fit_nonneg_rates h rates avgs txs :
  (forall t, 0 <= rate_of rates t) -> (forall t, 0 <= rate_of avgs t) -> convs_fit h rates avgs txs = true.
Proof.
  intros Hr Ha. unfold convs_fit. apply forallb_forall. intros t _.
  destruct (is_conversion t); cbn [negb orb]; [|reflexivity].
  destruct (conv_of c h rates avgs t) as [out|] eqn:E; [|reflexivity].
  unfold conv_of, convert_h in E. apply convert_range in E; auto.
  apply Z.eqb_eq. apply wrap64_small. unfold max_int64, two64 in *. lia.
Qed.
Lemma convs_fit_no_conversions h rates avgs txs : has_conversions txs = false -> convs_fit h rates avgs txs = true.
Proof.
  unfold has_conversions, convs_fit. intros H. apply forallb_forall. intros t Hin.
  destruct (is_conversion t) eqn:E; [|reflexivity].
  exfalso. assert (existsb is_conversion txs = true) by (apply existsb_exists; eauto). congruence.
Qed.
Lemma is_peg_request_is_conversion t : is_peg_request t = true -> is_conversion t = true.
Proof.
  unfold is_peg_request, is_conversion. destruct (tx_transfers t); [|discriminate].
  intros H. apply Z.eqb_eq in H. rewrite H. reflexivity.
Qed.
Lemma no_deferred_in h txs t :
  no_deferred h txs = true -> In t txs -> (c_PegnetConversionLimitActivation c <=? h) && is_peg_request t = false.
Proof.
  unfold no_deferred. intros H Hin. destruct (c_PegnetConversionLimitActivation c <=? h); [|reflexivity].
  cbn [andb] in *. apply negb_true_iff in H. destruct (is_peg_request t) eqn:E; [|reflexivity].
  rewrite <- H. symmetry. apply existsb_exists. eauto.
Qed.
Lemma no_deferred_no_conversions h txs : has_conversions txs = false -> no_deferred h txs = true.
Proof.
  unfold has_conversions, no_deferred. intros H.
  destruct (existsb is_peg_request txs) eqn:E; [|rewrite andb_false_r; reflexivity].
  exfalso. apply existsb_exists in E as (t & Hin & Ht). apply is_peg_request_is_conversion in Ht.
  assert (existsb is_conversion txs = true) by (apply existsb_exists; eauto). congruence.
Qed.

Definition transfer_credits (burn : addr) (ty : ticker) (trs : list transfer) : list (cell * Z) :=
  map (fun o => ((fst o, ty), snd o))
      (filter (fun o => negb (fst o =? burn)) (map (fun tr => (tr_addr tr, tr_amt tr)) trs)).

Lemma credit_transfers_effect h hs idx ty trs : forall s s',
  credit_transfers c h hs idx ty trs s = Ok s' ->
  htxs s' = htxs s /\ hist s' = hist s /\ credited s s' (transfer_credits (burn_addr c h) ty trs).
Proof.
  unfold credit_transfers. induction trs as [|tr trs IH]; intros s s' H.
  - inversion H; subst. repeat split. apply credited_same. reflexivity.
  - apply fold_res_cons in H as (s1 & E & H). destruct (IH _ _ H) as (E1 & E2 & E3).
    unfold transfer_credits. cbn [map filter fst]. fold (transfer_credits (burn_addr c h) ty trs).
    destruct (tr_addr tr =? burn_addr c h); cbn [negb]; [inversion E; subst; auto|].
    apply rbind_ok in E as (s2 & Ea & E). inversion E; subst s1. pose proof (credited_add _ _ _ _ _ Ea) as C.
    apply add_to_balance_ok in Ea as (_ & _ & ->). rewrite htxs_insert_relation in E1. rewrite hist_insert_relation in E2.
    split; [exact E1|]. split; [exact E2|]. cbn [map]. refine (credited_trans _ _ _ [_] _ C _).
    intros a t. rewrite (E3 a t), bal_insert_relation. reflexivity.
Qed.

Lemma record_txs_marks h hs rates avgs txs : forall idx s s',
  record_txs c h hs rates avgs idx txs s = Ok s' ->
  hist s' = match txs with [] => hist s | _ => mark_exec hs h (hist s) end.
Proof.
  induction txs as [|t txs IH]; intros idx s s' H; [inversion H; reflexivity|].
  apply record_txs_cons_inv in H as (s1 & s4 & Es & Hmid & Hrest). cbv zeta in Hmid.
  apply sub_from_balance_ok in Es as (_ & _ & _ & ->).
  set (s3 := set_executed (insert_relation _ (tx_addr t) hs idx false (is_conversion t)) hs h) in *.
  assert (E3 : hist s3 = mark_exec hs h (hist s)) by (unfold s3; rewrite hist_set_executed, hist_insert_relation; reflexivity).
  assert (E4 : hist s4 = hist s3).
  { destruct (_ && is_peg_request t); [destruct Hmid as [_ ->]; reflexivity|]. destruct (is_conversion t).
    - destruct Hmid as (out & _ & Hadd). apply add_to_balance_ok in Hadd as (_ & _ & ->). reflexivity.
    - apply (credit_transfers_effect _ _ _ _ _ _ _ Hmid). }
  rewrite (IH _ _ _ Hrest), E4, E3. destruct txs; [reflexivity|apply mark_exec_idem].
Qed.

(* UPDATE ... WHERE k *)
Definition upd {A} (k : A -> bool) (f : A -> A) (r : A) : A := if k r then f r else r.
Lemma upd_filter {A} (k q : A -> bool) (f : A -> A) l :
  (forall r, q (f r) = q r) -> filter q (map (upd k f) l) = map (upd k f) (filter q l).
Proof.
  intros Hf. induction l as [|r l IH]; [reflexivity|]. cbn [map filter].
  replace (q (upd k f r)) with (q r) by (unfold upd; destruct (k r); [rewrite Hf|]; reflexivity).
  destruct (q r); cbn [map]; rewrite IH; reflexivity.
Qed.
Lemma upd_id_on {A} (k : A -> bool) (f : A -> A) l : Forall (fun r => k r = false) l -> map (upd k f) l = l.
Proof. induction 1 as [|r l Hr _ IH]; [reflexivity|]. cbn [map]. unfold upd at 1. rewrite Hr, IH. reflexivity. Qed.

(* the primary key of pn_history_transaction *)
Definition key_at (hs : hash) (i : Z) (r : htx) : bool := (ht_hash r =? hs) && (ht_index r =? i).
Lemma htxs_upd_htx s hs i f : htxs (upd_htx s hs i f) = map (upd (key_at hs i) f) (htxs s).
Proof. reflexivity. Qed.
Lemma rows_of_upd hs i (f : htx -> htx) l :
  (forall r, ht_hash (f r) = ht_hash r) ->
  rows_of hs (map (upd (key_at hs i) f) l) = map (upd (fun r => ht_index r =? i) f) (rows_of hs l).
Proof.
  intros Hf. unfold rows_of. rewrite upd_filter by (intros r; rewrite Hf; reflexivity).
  apply map_ext_in. intros r Hr. apply filter_In in Hr as [_ Hr]. unfold upd, key_at. rewrite Hr. reflexivity.
Qed.
Lemma rows_not_upd hs i (f : htx -> htx) l :
  (forall r, ht_hash (f r) = ht_hash r) -> rows_not hs (map (upd (key_at hs i) f) l) = rows_not hs l.
Proof.
  intros Hf. unfold rows_not. rewrite upd_filter by (intros r; rewrite Hf; reflexivity).
  apply upd_id_on, Forall_forall. intros r Hr. apply filter_In in Hr as [_ Hr]. apply negb_true_iff in Hr.
  unfold key_at. rewrite Hr. reflexivity.
Qed.

Lemma row_effect_pend_conv burn hs idx t :
  is_conversion t = true ->
  row_effect burn (pend_row hs idx t) = [((tx_addr t, tx_type t), - tx_amt t); ((tx_addr t, tx_conv t), 0)].
Proof. intros E. unfold pend_row. rewrite E. reflexivity. Qed.
Lemma row_effect_exec_conv burn h rates avgs hs idx t :
  is_conversion t = true ->
  row_effect burn (exec_row h rates avgs hs idx t) =
  [((tx_addr t, tx_type t), - tx_amt t); ((tx_addr t, tx_conv t), conv_out h rates avgs t)].
Proof. intros E. unfold exec_row. rewrite E. reflexivity. Qed.
Lemma row_effect_exec_transfer burn h rates avgs hs idx t :
  is_conversion t = false ->
  row_effect burn (exec_row h rates avgs hs idx t) =
  ((tx_addr t, tx_type t), - tx_amt t) :: transfer_credits burn (tx_type t) (tx_transfers t).
Proof. intros E. unfold exec_row, pend_row. rewrite E. reflexivity. Qed.
Lemma row_effect_coinbase burn hs i a asset amt : row_effect burn (coinbase_row hs i a asset amt) = [((a, asset), amt)].
Proof. reflexivity. Qed.

Lemma exec_row_keys h rates avgs hs idx t :
  ht_hash (exec_row h rates avgs hs idx t) = hs /\ ht_index (exec_row h rates avgs hs idx t) = idx.
Proof. unfold exec_row. destruct (is_conversion t); [split; reflexivity|apply pend_row_keys]. Qed.
Lemma exec_rows_from h rates avgs hs txs : forall idx,
  exec_rows h rates avgs hs idx txs = rows_from (exec_row h rates avgs hs) idx txs.
Proof. induction txs as [|t txs IH]; intros idx; cbn [exec_rows rows_from]; [reflexivity|rewrite IH; reflexivity]. Qed.
Lemma exec_rows_hash h rates avgs hs txs : forall idx, Forall (fun r => ht_hash r = hs) (exec_rows h rates avgs hs idx txs).
Proof.
  intros idx. rewrite exec_rows_from. apply (rows_from_Forall (fun _ r => ht_hash r = hs)); [intros; apply exec_row_keys|auto].
Qed.
Lemma exec_rows_length h rates avgs hs txs : forall idx, length (exec_rows h rates avgs hs idx txs) = length txs.
Proof. induction txs as [|t txs IH]; intros idx; cbn [exec_rows length]; [reflexivity|]. rewrite IH. reflexivity. Qed.

(* [row]: the row recordBatch leaves for a transaction: as inserted for a PEG request whose output is
   deferred to the second pass, with the converted amount otherwise.  [pre]: the rows of the batch that
   are already done (indices below idx) *)
Lemma record_txs_rows h hs rates avgs (row : Z -> tx -> htx) txs :
  (forall idx t, In t txs ->
     row idx t = if (c_PegnetConversionLimitActivation c <=? h) && is_peg_request t
                 then pend_row hs idx t else exec_row h rates avgs hs idx t) ->
  forall idx s s' pre,
  record_txs c h hs rates avgs idx txs s = Ok s' ->
  convs_fit h rates avgs txs = true ->
  rows_of hs (htxs s) = pre ++ pend_rows hs idx txs ->
  Forall (fun r => ht_index r < idx) pre ->
  rows_of hs (htxs s') = pre ++ rows_from row idx txs /\
  rows_not hs (htxs s') = rows_not hs (htxs s) /\
  hist s' = match txs with [] => hist s | _ => mark_exec hs h (hist s) end /\
  (forall a t, get_bal (bal s') a t =
               get_bal (bal s) a t + rows_effect (burn_addr c h) a t (rows_from row idx txs)).
Proof.
  intros Hrow idx s s' pre H Hfit Hrows Hpre.
  (* the status column is record_txs_marks; the rest by induction *)
  cut (rows_of hs (htxs s') = pre ++ rows_from row idx txs /\ rows_not hs (htxs s') = rows_not hs (htxs s) /\
       (forall a t, get_bal (bal s') a t = get_bal (bal s) a t + rows_effect (burn_addr c h) a t (rows_from row idx txs))).
  { intros (E1 & E2 & E4). pose proof (record_txs_marks _ _ _ _ _ _ _ _ H) as E3. auto. }
  revert Hrow idx s s' pre H Hfit Hrows Hpre. induction txs as [|t txs IH]; intros Hrow idx s s' pre H Hfit Hrows Hpre.
  - cbn in H. inversion H; subst. cbn [rows_from pend_rows] in *. repeat split; auto. intros a t. rewrite rows_effect_nil. lia.
  - apply record_txs_cons_inv in H as (s1 & sk & Es & Hk & Hrest). cbv zeta in Hk.
    pose proof (credited_sub _ _ _ _ _ Es) as B1. apply sub_from_balance_ok in Es as (_ & _ & _ & Es).
    set (s3 := set_executed (insert_relation s1 (tx_addr t) hs idx false (is_conversion t)) hs h) in *.
    assert (X3 : htxs s3 = htxs s) by (unfold s3; rewrite htxs_set_executed, htxs_insert_relation, Es; reflexivity).
    assert (B3 : credited s s3 [((tx_addr t, tx_type t), - tx_amt t)])
      by (intros a t'; unfold s3; rewrite bal_set_executed, bal_insert_relation; apply B1).
    unfold convs_fit in Hfit. cbn [forallb] in Hfit. apply andb_prop in Hfit as [Hf1 Hf2]. fold (convs_fit h rates avgs txs) in Hf2.
    cbn [pend_rows] in Hrows. cbn [rows_from]. pose proof (Hrow idx t (or_introl eq_refl)) as Er.
    (* what is left to show about the state [sk] after this transaction *)
    assert (Tail : rows_of hs (htxs sk) = pre ++ row idx t :: pend_rows hs (idx + 1) txs ->
                   rows_not hs (htxs sk) = rows_not hs (htxs s) ->
                   credited s sk (row_effect (burn_addr c h) (row idx t)) ->
                   rows_of hs (htxs s') = pre ++ row idx t :: rows_from row (idx + 1) txs /\
                   rows_not hs (htxs s') = rows_not hs (htxs s) /\
                   (forall a t', get_bal (bal s') a t' =
                                 get_bal (bal s) a t' + rows_effect (burn_addr c h) a t' (row idx t :: rows_from row (idx + 1) txs))).
    { intros X N Bk.
      assert (Ei : ht_index (row idx t) = idx) by (rewrite Er; destruct (_ && _); [apply pend_row_keys|apply exec_row_keys]).
      destruct (IH (fun i t0 Hin => Hrow i t0 (or_intror Hin)) (idx + 1) sk s' (pre ++ [row idx t]) Hrest Hf2) as (R1 & R2 & R4).
      { rewrite <- app_assoc. exact X. }
      { apply Forall_app. split; [eapply Forall_impl; [|exact Hpre]; cbn; intros; lia|]. constructor; [lia|constructor]. }
      split; [rewrite R1, <- app_assoc; reflexivity|]. split; [congruence|].
      intros a t'. rewrite R4, (Bk a t'), rows_effect_cons. lia. }
    destruct ((c_PegnetConversionLimitActivation c <=? h) && is_peg_request t) eqn:Hd.
    + (* a PEG request whose output is deferred: only the debit, the row stays as inserted *)
      destruct Hk as [_ ->].
      assert (Ec : is_conversion t = true) by (apply andb_prop in Hd as [_ Hd]; apply is_peg_request_is_conversion; exact Hd).
      apply Tail; [rewrite X3, Hrows, Er; reflexivity|rewrite X3; reflexivity|].
      rewrite Er, (row_effect_pend_conv _ _ _ _ Ec). intros a t'.
      rewrite (B3 a t'), !effect_on_cons, effect_on_nil. cbn [fst snd]. destruct ((tx_addr t =? a) && (tx_conv t =? t')); lia.
    + destruct (is_conversion t) eqn:Ec.
      * destruct Hk as (out & Eo & Hadd). rewrite Eo in Hf1. cbn [negb orb] in Hf1. apply Z.eqb_eq in Hf1. rewrite Hf1 in Hadd.
        pose proof (credited_add _ _ _ _ _ Hadd) as B5. apply add_to_balance_ok in Hadd as (_ & _ & E5).
        apply Tail.
        -- (* the UPDATE hits the row of this transaction and no other row of the batch *)
           rewrite Er, E5. cbn [htxs set_bal]. unfold set_to_amount. rewrite htxs_upd_htx.
           rewrite rows_of_upd by reflexivity. rewrite X3, Hrows, map_app. cbn [map].
           rewrite !upd_id_on
             by (first [eapply Forall_impl; [|exact Hpre]|eapply Forall_impl; [|apply pend_rows_index]]; cbn; intros; lia).
           f_equal. f_equal. unfold upd, exec_row, conv_out, pend_row. rewrite Ec, Eo. cbn [ht_index]. rewrite Z.eqb_refl. reflexivity.
        -- rewrite E5. cbn [htxs set_bal]. unfold set_to_amount. rewrite htxs_upd_htx.
           rewrite rows_not_upd by reflexivity. rewrite X3. reflexivity.
        -- rewrite Er, (row_effect_exec_conv _ _ _ _ _ _ _ Ec). unfold conv_out. rewrite Eo.
           exact (credited_trans _ _ _ _ _ B3 B5).
      * destruct (credit_transfers_effect _ _ _ _ _ _ _ Hk) as (U1 & _ & U3).
        assert (Ep : exec_row h rates avgs hs idx t = pend_row hs idx t) by (unfold exec_row; rewrite Ec; reflexivity).
        apply Tail; [rewrite U1, X3, Hrows, Er, Ep; reflexivity|rewrite U1, X3; reflexivity|].
        rewrite Er, (row_effect_exec_transfer _ _ _ _ _ _ _ Ec). exact (credited_trans _ _ _ _ _ B3 U3).
Qed.

(* the statement for a whole batch, from the rows exactly as insert_history leaves them *)
Theorem record_batch_history h hs rates avgs txs s s' :
  record_batch c h hs rates avgs txs s = Ok s' ->
  no_deferred h txs = true ->
  convs_fit h rates avgs txs = true ->
  rows_of hs (htxs s) = map fst (history_rows_of hs txs) ->
  (* the rows of the batch now carry the converted amounts, nothing else in the table moved *)
  rows_of hs (htxs s') = exec_rows h rates avgs hs 0 txs /\
  rows_not hs (htxs s') = rows_not hs (htxs s) /\
  (* every batch row of that hash is marked executed at h (when there is a transaction at all) *)
  hist s' = match txs with [] => hist s | _ => mark_exec hs h (hist s) end /\
  (* and every cell moved by exactly what those rows stand for *)
  (forall a t, get_bal (bal s') a t =
               get_bal (bal s) a t + rows_effect (burn_addr c h) a t (rows_of hs (htxs s'))).
Proof.
  intros H Hnd Hfit Hrows. rewrite history_rows_of_pend in Hrows.
  assert (Hrow : forall idx t, In t txs ->
            exec_row h rates avgs hs idx t = if (c_PegnetConversionLimitActivation c <=? h) && is_peg_request t
                                             then pend_row hs idx t else exec_row h rates avgs hs idx t)
    by (intros idx t Hin; rewrite (no_deferred_in h txs t Hnd Hin); reflexivity).
  destruct (record_txs_rows h hs rates avgs _ txs Hrow 0 s s' [] H Hfit Hrows (Forall_nil _)) as (R1 & R2 & R3 & R4).
  rewrite <- exec_rows_from in R1, R4. cbn [app] in R1. rewrite R1. auto.
Qed.

Corollary apply_batch_history h hs rates avgs txs s s' :
  apply_batch c h s hs txs rates avgs = BApplied s' ->
  no_deferred h txs = true ->
  convs_fit h rates avgs txs = true ->
  rows_of hs (htxs s) = map fst (history_rows_of hs txs) ->
  rows_of hs (htxs s') = exec_rows h rates avgs hs 0 txs /\
  rows_not hs (htxs s') = rows_not hs (htxs s) /\
  hist s' = match txs with [] => hist s | _ => mark_exec hs h (hist s) end /\
  (forall a t, get_bal (bal s') a t =
               get_bal (bal s) a t + rows_effect (burn_addr c h) a t (rows_of hs (htxs s'))).
Proof. intros H. apply apply_batch_applied_is_record in H. apply record_batch_history; exact H. Qed.

Corollary record_batch_status h hs rates avgs txs s s' :
  record_batch c h hs rates avgs txs s = Ok s' ->
  no_deferred h txs = true -> convs_fit h rates avgs txs = true ->
  rows_of hs (htxs s) = map fst (history_rows_of hs txs) ->
  txs <> [] -> Forall (fun e => e = h) (status_of s' hs).
Proof.
  intros H Hnd Hfit Hrows Hne. destruct (record_batch_history _ _ _ _ _ _ _ H Hnd Hfit Hrows) as (_ & _ & R3 & _).
  unfold status_of. rewrite R3. destruct txs; [congruence|]. rewrite status_mark_exec.
  apply Forall_forall. intros e He. apply in_map_iff in He as (? & <- & _). reflexivity.
Qed.

(* a new entry, whatever becomes of it: its batch row and its transaction rows are inserted; then it is
   applied (transfers only), or it waits in holding, is dropped, or is rejected for an overdraft *)
Lemma apply_entry_fresh h s order e txs s' :
  apply_entry c h s order e = Ok s' ->
  entry_valid_at c e h = Some txs -> is_replay s (e_hash e) = false -> hist_has s (e_hash e) = false ->
  rows_of (e_hash e) (htxs s) = [] ->
  rows_not (e_hash e) (htxs s') = rows_not (e_hash e) (htxs s) /\
  ( ( has_conversions txs = false /\ txs <> [] /\
      rows_of (e_hash e) (htxs s') = exec_rows h ∅ ∅ (e_hash e) 0 txs /\
      hist s' = hist s ++ [batch_row e h order h] /\
      forall a t, get_bal (bal s') a t =
                  get_bal (bal s) a t + rows_effect (burn_addr c h) a t (rows_of (e_hash e) (htxs s')) )
    \/
    ( rows_of (e_hash e) (htxs s') = pend_rows (e_hash e) 0 txs /\ bal s' = bal s /\
      (hist s' = hist s ++ [batch_row e h order 0] \/
       has_conversions txs = false /\ hist s' = hist s ++ [batch_row e h order (-1)]) ) ).
Proof.
  intros H Hv Hr Hh Hrows. unfold apply_entry in H. rewrite Hv, Hr, Hh in H.
  apply rbind_ok in H as (s1 & H1 & H2).
  apply insert_history_tables in H1 as (A1 & A2 & A3 & A4 & A5).
  destruct (rows_of_all (e_hash e) _ (pend_rows_hash (e_hash e) txs 0)) as [P1 P2].
  assert (X1 : rows_of (e_hash e) (htxs s1) = pend_rows (e_hash e) 0 txs) by (rewrite A2, rows_of_app, Hrows, P1; reflexivity).
  assert (N1 : rows_not (e_hash e) (htxs s1) = rows_not (e_hash e) (htxs s)) by (rewrite A2, rows_not_app, P2, app_nil_r; reflexivity).
  assert (M : forall code, mark_exec (e_hash e) code (hist s1) = hist s ++ [batch_row e h order code]).
  { intros code. rewrite A1, mark_exec_app, (mark_exec_fresh _ _ _ Hh). cbn [mark_exec map hb_hash batch_row]. rewrite Z.eqb_refl. reflexivity. }
  destruct (has_conversions txs) eqn:Hc.
  { apply insert_holding_ok in H2 as [_ ->]. split; [exact N1|]. right. split; [exact X1|]. split; [exact A3|]. left; exact A1. }
  destruct (apply_batch c h s1 (e_hash e) txs ∅ ∅) as [s2|code| |code] eqn:Eb.
  - inversion H2; subst s2.
    destruct (apply_batch_history _ _ _ _ _ _ _ Eb (no_deferred_no_conversions h txs Hc)
                (convs_fit_no_conversions h ∅ ∅ txs Hc) (eq_trans X1 (eq_sym (history_rows_of_pend _ txs)))) as (R1 & R2 & R3 & R4).
    split; [congruence|].
    destruct txs as [|t0 txs0] eqn:Et.
    + right. rewrite R3, R1. split; [reflexivity|]. split; [|left; exact A1].
      apply apply_batch_applied_is_record in Eb. cbn in Eb. inversion Eb; subst. exact A3.
    + left. split; [reflexivity|]. split; [discriminate|]. split; [exact R1|]. split; [rewrite R3; apply M|].
      intros a t. rewrite R4, A3. reflexivity.
  - destruct (code =? -1) eqn:Ecode; [|discriminate]. inversion H2; subst s'. apply Z.eqb_eq in Ecode. subst code.
    split; [exact N1|]. right. split; [exact X1|]. split; [exact A3|]. right. split; [reflexivity|apply M].
  - inversion H2; subst s'. split; [exact N1|]. right. split; [exact X1|]. split; [exact A3|]. left; exact A1.
  - discriminate.
Qed.

Theorem apply_entry_history h s order e txs s' :
  apply_entry c h s order e = Ok s' ->
  entry_valid_at c e h = Some txs ->
  is_replay s (e_hash e) = false ->
  hist_has s (e_hash e) = false ->               (* the entry hash is not recorded *)
  has_conversions txs = false ->                 (* transfer-only: applied directly *)
  rows_of (e_hash e) (htxs s) = [] ->            (* no stale transaction rows under that hash *)
  rows_not (e_hash e) (htxs s') = rows_not (e_hash e) (htxs s) /\
  ( (* executed: rows recorded, batch row marked executed at h, every cell moved by what the rows stand for *)
    ( txs <> [] /\
      rows_of (e_hash e) (htxs s') = exec_rows h ∅ ∅ (e_hash e) 0 txs /\
      hist s' = hist s ++ [batch_row e h order h] /\
      forall a t, get_bal (bal s') a t =
                  get_bal (bal s) a t + rows_effect (burn_addr c h) a t (rows_of (e_hash e) (htxs s')) )
    \/
    (* not executed: the rows stay as inserted, the batch row says pending (0) or rejected (-1), no cell moved *)
    ( rows_of (e_hash e) (htxs s') = pend_rows (e_hash e) 0 txs /\ bal s' = bal s /\
      (hist s' = hist s ++ [batch_row e h order 0] \/ hist s' = hist s ++ [batch_row e h order (-1)]) ) ).
Proof.
  intros H Hv Hr Hh _ Hrows.
  destruct (apply_entry_fresh h s order e txs s' H Hv Hr Hh Hrows) as (N & [(_ & R)|(R1 & R2 & [R3|[_ R3]])]); auto 6.
Qed.

Theorem apply_held_history cur rates avgs s e hh s' isp txs :
  apply_held c cur rates avgs s e hh = Ok (s', isp) ->
  entry_valid_at c e hh = Some txs ->
  no_deferred cur txs = true ->
  convs_fit cur rates avgs txs = true ->
  rows_of (e_hash e) (htxs s) = map fst (history_rows_of (e_hash e) txs) ->
  isp = false /\
  ( (* executed by this block *)
    ( apply_batch c cur s (e_hash e) txs rates avgs = BApplied s' /\
      rows_of (e_hash e) (htxs s') = exec_rows cur rates avgs (e_hash e) 0 txs /\
      rows_not (e_hash e) (htxs s') = rows_not (e_hash e) (htxs s) /\
      hist s' = match txs with [] => hist s | _ => mark_exec (e_hash e) cur (hist s) end /\
      forall a t, get_bal (bal s') a t =
                  get_bal (bal s) a t + rows_effect (burn_addr c cur) a t (rows_of (e_hash e) (htxs s')) )
    \/
    (* not executed: no row and no cell moved; the status is untouched or a negative code *)
    ( htxs s' = htxs s /\ bal s' = bal s /\
      (hist s' = hist s \/ exists code, code < 0 /\ hist s' = mark_exec (e_hash e) code (hist s)) ) ).
Proof.
  intros H Hv Hnd Hfit Hrows.
  apply apply_held_inv in H as [[-> ->]|[(-> & code & Hcode & ->)|(txs' & Hv' & _ & -> & D)]].
  - split; [reflexivity|]. right. auto.
  - split; [reflexivity|]. right. repeat split. right. exists code. split; [exact Hcode|reflexivity].
  - rewrite Hv in Hv'. inversion Hv'; subst txs'. split.
    + (* the batch joins the PEG requests of the block only if it has one that is deferred *)
      unfold no_deferred in Hnd. unfold has_peg_request. apply negb_true_iff in Hnd.
      destruct (cur <? c_V20HeightActivation c); cbn [andb]; [exact Hnd|reflexivity].
    + destruct D as [->|Eb]; [right; auto|left]. split; [exact Eb|]. exact (apply_batch_history _ _ _ _ _ _ _ Eb Hnd Hfit Hrows).
Qed.


Lemma coinbase_step s a t v hb r lk s' :
  credit_logged s a t v hb r lk = Ok s' -> (forall burn, row_effect burn r = [((a, t), v)]) -> moved s s' [r] [hb].
Proof.
  intros H Hr. apply credit_logged_iff in H as (_ & _ & _ & _ & _ & ->). split; [eexists _, _; reflexivity|].
  intros burn a' t'. rewrite rows_effect_cons, rows_effect_nil, Hr, Z.add_0_r. exact (credited_cell s a t v a' t').
Qed.

(* ApplyGradedOPRBlock / ApplyGradedSPRBlock *)
Definition winner_rows (ws : list winner) : list htx :=
  flat_map (fun w => match w_addr w with
                     | Some a => [coinbase_row (w_hash w) 0 a PTickerPEG (w_payout w)]
                     | None => [] end) ws.
Definition winner_batches (ts : Z) (ws : list winner) : list hbatch :=
  flat_map (fun w => match w_addr w with
                     | Some _ => [{| hb_hash := w_hash w; hb_height := w_height w; hb_order := 0; hb_ts := ts; hb_exec := w_height w |}]
                     | None => [] end) ws.
(* the code credits uint64(payout) and records payout: they agree when the payout is a uint64 *)
Definition payouts_fit (ws : list winner) : bool :=
  forallb (fun w => match w_addr w with Some _ => wrap64 (w_payout w) =? w_payout w | None => true end) ws.

Lemma pay_winners_moved s ts ws s' :
  pay_winners s ts ws = Ok s' -> payouts_fit ws = true -> moved s s' (winner_rows ws) (winner_batches ts ws).
Proof.
  intros H Hfit. unfold payouts_fit in Hfit. rewrite forallb_forall in Hfit.
  refine (moved_fold _ _ _ ws _ s s' H). intros s0 w s1 Hin Hs. specialize (Hfit w Hin).
  destruct (w_addr w) as [a|]; [|inversion Hs; subst; apply moved_refl].
  apply Z.eqb_eq in Hfit. rewrite Hfit in Hs. apply (coinbase_step _ _ _ _ _ _ _ _ Hs). reflexivity.
Qed.
Theorem pay_winners_history s ts ws s' :
  pay_winners s ts ws = Ok s' ->
  payouts_fit ws = true ->
  htxs s' = htxs s ++ winner_rows ws /\
  hist s' = hist s ++ winner_batches ts ws /\
  forall burn a t, get_bal (bal s') a t = get_bal (bal s) a t + rows_effect burn a t (winner_rows ws).
Proof. intros H Hfit. exact (moved_history _ _ _ _ (pay_winners_moved s ts ws s' H Hfit)). Qed.

(* ApplyFactoidBlock *)
Definition burn_row (f : ftx) (a : addr) (v : Z) : htx :=
  {| ht_hash := f_txid f; ht_index := 0; ht_action := 4; ht_from := a; ht_from_asset := -1;
     ht_from_amount := v; ht_to_asset := PTickerFCT; ht_to_amount := v; ht_outputs := [] |}.
Definition burn_rows (fs : list ftx) : list htx :=
  flat_map (fun f => match is_burn f with Some (a, v) => [burn_row f a v] | None => [] end) fs.
Definition burn_batches (h : Z) (fs : list ftx) : list hbatch :=
  flat_map (fun f => match is_burn f with
                     | Some _ => [{| hb_hash := f_txid f; hb_height := h; hb_order := -1; hb_ts := f_ts f; hb_exec := h |}]
                     | None => [] end) fs.

Lemma apply_factoid_block_moved h s fs s' :
  apply_factoid_block h s fs = Ok s' -> moved s s' (burn_rows fs) (burn_batches h fs).
Proof.
  intros H. refine (moved_fold _ _ _ fs _ s s' H). intros s0 f s1 _ Hs.
  destruct (is_burn f) as [[a v]|]; [|inversion Hs; subst; apply moved_refl].
  apply (coinbase_step _ _ _ _ _ _ _ _ Hs). reflexivity.
Qed.
Theorem apply_factoid_block_history h s fs s' :
  apply_factoid_block h s fs = Ok s' ->
  htxs s' = htxs s ++ burn_rows fs /\
  hist s' = hist s ++ burn_batches h fs /\
  forall burn a t, get_bal (bal s') a t = get_bal (bal s) a t + rows_effect burn a t (burn_rows fs).
Proof. intros H. exact (moved_history _ _ _ _ (apply_factoid_block_moved h s fs s' H)). Qed.

Fixpoint dev_rows_from (after : bool) (h i j : Z) (l : list (Z * Z * Z * Z)) : list htx :=
  match l with
  | [] => []
  | (a, _, pre, post) :: l' =>
    coinbase_row (mock_hash_dev j h) i a PTickerPEG (if after then post else pre)
    :: dev_rows_from after h (if 9 <? i + 1 then 0 else i + 1) (j + 1) l'
  end.
Fixpoint dev_batches_from (h ts j : Z) (l : list (Z * Z * Z * Z)) : list hbatch :=
  match l with
  | [] => []
  | _ :: l' => {| hb_hash := mock_hash_dev j h; hb_height := h; hb_order := 0; hb_ts := ts; hb_exec := h |}
               :: dev_batches_from h ts (j + 1) l'
  end.
Definition dev_rows (h : Z) : list htx := dev_rows_from (c_V202EnhanceActivation c <=? h) h 0 1 dev_rewards.
Definition dev_batches (h ts : Z) : list hbatch := dev_batches_from h ts 1 dev_rewards.

(* the same lists, one element per step of the fold [developers_payouts_fst] *)
Definition dev_row (after : bool) (h : Z) (x : Z * Z * (Z * Z * Z * Z)) : htx :=
  let '(i, j, (a, _, pre, post)) := x in coinbase_row (mock_hash_dev j h) i a PTickerPEG (if after then post else pre).
Definition dev_batch (h ts : Z) (x : Z * Z * (Z * Z * Z * Z)) : hbatch :=
  {| hb_hash := mock_hash_dev (snd (fst x)) h; hb_height := h; hb_order := 0; hb_ts := ts; hb_exec := h |}.
Lemma dev_rows_indexed after h l : forall i j,
  dev_rows_from after h i j l = flat_map (fun x => [dev_row after h x]) (dev_indexed i j l).
Proof.
  induction l as [|[[[a b] pre] post] l IH]; intros i j; [reflexivity|].
  cbn [dev_rows_from dev_indexed flat_map app dev_row]. rewrite IH. reflexivity.
Qed.
Lemma dev_batches_indexed h ts l : forall i j,
  dev_batches_from h ts j l = flat_map (fun x => [dev_batch h ts x]) (dev_indexed i j l).
Proof.
  induction l as [|d l IH]; intros i j; [reflexivity|].
  cbn [dev_batches_from dev_indexed flat_map app]. rewrite (IH (if 9 <? i + 1 then 0 else i + 1)). reflexivity.
Qed.

Lemma developers_payouts_moved h ts s s' :
  fst (developers_payouts c h ts s) = Ok s' -> moved s s' (dev_rows h) (dev_batches h ts).
Proof.
  rewrite developers_payouts_fst. intros H. unfold dev_rows, dev_batches.
  rewrite dev_rows_indexed, (dev_batches_indexed h ts dev_rewards 0).
  refine (moved_fold _ _ _ _ _ s s' H). intros s0 [[i j] [[[a bits] pre] post]] s1 _ Hs.
  apply (coinbase_step _ _ _ _ _ _ _ _ Hs). reflexivity.
Qed.
Theorem developers_payouts_history h ts s s' :
  fst (developers_payouts c h ts s) = Ok s' ->
  htxs s' = htxs s ++ dev_rows h /\
  hist s' = hist s ++ dev_batches h ts /\
  forall burn a t, get_bal (bal s') a t = get_bal (bal s) a t + rows_effect burn a t (dev_rows h).
Proof. intros H. exact (moved_history _ _ _ _ (developers_payouts_moved h ts s s' H)). Qed.

Lemma snapshot_payouts_moved h ts rates s s' :
  snapshot_payouts c h ts rates s = Ok s' ->
  exists rows B,
    moved (set_snaps s (bal s) (snap_cur s)) s' rows B /\
    Forall (fun r => ht_hash r = mock_hash h /\ ht_action r = 3 /\ ht_to_asset r = PTickerPEG) rows /\
    (rows = [] /\ B = [] \/ B = [staking_batch h ts]).
Proof.
  intros H. apply snapshot_payouts_ok in H as [_ [[_ ->]|(_ & s2 & s3 & H1 & H2 & H3)]].
  { exists [], []. split; [apply moved_refl|]. split; [constructor|left; auto]. }
  (* the batch row, then one row per payout, then one credit per payout *)
  apply insert_hbatch_ok in H1 as [_ ->].
  set (pays := payouts _ _) in *. set (payee := staking_payee c h rates s) in *. set (row := staking_row h payee).
  apply (insert_htx_fold _ row) in H2 as (lks & ->);
    [|intros s0 p s4 _; cbv beta; destruct (two63 <=? _); [discriminate|]; intros Hs; eexists; exact Hs].
  pose proof (credited_fold _ (fun p => [((payee p, PTickerPEG), snd p)]) pays
                (fun s0 p s4 _ Hs => credited_add _ _ _ _ _ Hs) _ _ H3) as C.
  match type of H3 with staking_credits _ _ ?s3 = _ => assert (F : exists m, s' = set_bal s3 m) end.
  { refine (fold_res_invariant (fun x => exists m, x = set_bal _ m) _ _ _ _ s' _ H3); [|eexists (bal _); reflexivity].
    intros s0 p s4 (m & ->) Hs. apply add_to_balance_ok in Hs as (_ & _ & ->). eexists; reflexivity. }
  destruct F as (m & E). exists (map row pays), [staking_batch h ts]. split; [split; [exists m, lks; exact E|]|split; [|right; reflexivity]].
  - (* what is credited for a payout is what its row stands for: row_effect_coinbase *)
    intros burn a t. rewrite (C a t). f_equal. unfold rows_effect. rewrite fold_sum_map. apply fold_sum_flat_map.
  - apply Forall_forall. intros r Hr. apply in_map_iff in Hr as (p & <- & _). repeat split.
Qed.

Theorem snapshot_payouts_history h ts rates s s' :
  snapshot_payouts c h ts rates s = Ok s' ->
  exists rows,
    htxs s' = htxs s ++ rows /\
    Forall (fun r => ht_hash r = mock_hash h /\ ht_action r = 3 /\ ht_to_asset r = PTickerPEG) rows /\
    (hist s' = hist s \/
     hist s' = hist s ++ [{| hb_hash := mock_hash h; hb_height := h; hb_order := 0; hb_ts := ts; hb_exec := h |}]) /\
    (rows <> [] -> hist s' = hist s ++ [{| hb_hash := mock_hash h; hb_height := h; hb_order := 0; hb_ts := ts; hb_exec := h |}]) /\
    forall burn a t, get_bal (bal s') a t = get_bal (bal s) a t + rows_effect burn a t rows.
Proof.
  intros H. destruct (snapshot_payouts_moved h ts rates s s' H) as (rows & B & M & F & HB). exists rows.
  apply moved_history in M as (M1 & M2 & M3). split; [exact M1|]. split; [exact F|].
  split; [destruct HB as [[_ ->]| ->]; [left; rewrite M2; apply app_nil_r|right; exact M2]|].
  split; [intros Hne; destruct HB as [[-> _]| ->]; [contradiction|exact M2]|exact M3].
Qed.
End WithCfg.

(* states of the example chain (Model/Examples.v): after block 101 alice holds 100 pFCT; after 103 she has
   transferred 30 to bob and her conversion 602 (20 pFCT -> pUSD) waits in holding with its rows pending *)
Definition ex_rates : gmap ticker Z :=
  <[PTickerPEG := 200000000]> (<[PTickerUSD := 100000000]> (<[PTickerFCT := 400000000]> ∅)).
Definition ex_conv_txs : list tx :=
  [{| tx_addr := alice; tx_type := PTickerFCT; tx_amt := 20; tx_transfers := []; tx_conv := PTickerUSD |}].
Definition ex_transfer_txs : list tx :=
  [{| tx_addr := alice; tx_type := PTickerFCT; tx_amt := 30;
      tx_transfers := [{| tr_addr := bob; tr_amt := 30 |}]; tx_conv := 0 |}].
Definition ex_state (n : nat) : option db :=
  match replay ex_cfg genesis empty_cache (firstn n ex_chain) with Done (s, _) => Some s | _ => None end.

(* record_batch_history / record_batch_status: the held conversion recorded at height 104 at the example rates *)
Example record_batch_history_hyps :
  match ex_state 3 with
  | Some s =>
    match record_batch ex_cfg 104 602 ex_rates ex_rates ex_conv_txs s with
    | Ok s' =>
      no_deferred ex_cfg 104 ex_conv_txs = true /\
      convs_fit ex_cfg 104 ex_rates ex_rates ex_conv_txs = true /\
      rows_of 602 (htxs s) = map fst (history_rows_of 602 ex_conv_txs) /\
      ex_conv_txs <> [] /\
      (* and what the theorem then says, on this instance *)
      map ht_to_amount (rows_of 602 (htxs s')) = [80] /\
      get_bal (bal s) alice PTickerFCT = 70 /\ get_bal (bal s') alice PTickerFCT = 50 /\
      rows_effect (burn_addr ex_cfg 104) alice PTickerFCT (rows_of 602 (htxs s')) = -20 /\
      get_bal (bal s) alice PTickerUSD = 0 /\ get_bal (bal s') alice PTickerUSD = 80 /\
      rows_effect (burn_addr ex_cfg 104) alice PTickerUSD (rows_of 602 (htxs s')) = 80 /\
      status_of s 602 = [0] /\ status_of s' 602 = [104]
    | _ => False
    end
  | None => False
  end.
Proof. vm_compute. repeat split; try reflexivity. discriminate. Qed.

(* apply_batch_history: the same batch through applyTransactionBatch *)
Example apply_batch_history_hyps :
  match ex_state 3 with
  | Some s =>
    match apply_batch ex_cfg 104 s 602 ex_conv_txs ex_rates ex_rates with
    | BApplied s' =>
      no_deferred ex_cfg 104 ex_conv_txs = true /\
      convs_fit ex_cfg 104 ex_rates ex_rates ex_conv_txs = true /\
      rows_of 602 (htxs s) = map fst (history_rows_of 602 ex_conv_txs) /\
      get_bal (bal s') alice PTickerUSD = 80
    | _ => False
    end
  | None => False
  end.
Proof. vm_compute. repeat split; reflexivity. Qed.

(* apply_entry_history: the transfer 601 arriving in block 102 (executed branch) *)
Example apply_entry_history_hyps :
  match ex_state 1 with
  | Some s =>
    match apply_entry ex_cfg 102 s 0 (ex_transfer 601 30) with
    | Ok s' =>
      entry_valid_at ex_cfg (ex_transfer 601 30) 102 = Some ex_transfer_txs /\
      is_replay s 601 = false /\ hist_has s 601 = false /\
      has_conversions ex_transfer_txs = false /\ rows_of 601 (htxs s) = [] /\
      (* executed *)
      hist s' = hist s ++ [batch_row (ex_transfer 601 30) 102 0 102] /\
      get_bal (bal s) alice PTickerFCT = 100 /\ get_bal (bal s') alice PTickerFCT = 70 /\
      get_bal (bal s') bob PTickerFCT = 30 /\
      rows_effect (burn_addr ex_cfg 102) bob PTickerFCT (rows_of 601 (htxs s')) = 30
    | _ => False
    end
  | None => False
  end.
Proof. vm_compute. repeat split; reflexivity. Qed.
(* ... and the rejected branch: the overdraft 603 arriving in block 103 *)
Example apply_entry_history_rejected :
  match ex_state 2 with
  | Some s =>
    match apply_entry ex_cfg 103 s 0 (ex_transfer 603 1000) with
    | Ok s' =>
      is_replay s 603 = false /\ hist_has s 603 = false /\ rows_of 603 (htxs s) = [] /\
      bal s' = bal s /\ hist s' = hist s ++ [batch_row (ex_transfer 603 1000) 103 0 (-1)]
    | _ => False
    end
  | None => False
  end.
Proof.
  (* what is a number or a short list is evaluated; that no balance moved is the theorem's second branch *)
  unfold ex_state.
  destruct (done_witness (replay ex_cfg genesis empty_cache (firstn 2 ex_chain))
              (fun s _ => match apply_entry ex_cfg 103 s 0 (ex_transfer 603 1000) with
                          | Ok s' =>
                            (is_replay s 603 = false /\ hist_has s 603 = false /\ rows_of 603 (htxs s) = []) /\
                            hist s' = hist s ++ [batch_row (ex_transfer 603 1000) 103 0 (-1)] /\
                            match entry_valid_at ex_cfg (ex_transfer 603 1000) 103 with
                            | Some txs => has_conversions txs = false | None => False end
                          | _ => False
                          end)) as (s & m & -> & Q); [vm_compute; repeat split; reflexivity|].
  destruct (apply_entry ex_cfg 103 s 0 (ex_transfer 603 1000)) as [s'| |] eqn:E; try exact Q.
  destruct Q as ((Hr & Hh & Hrows) & Hhist & Hc).
  destruct (entry_valid_at ex_cfg (ex_transfer 603 1000) 103) as [txs|] eqn:Ev; [|contradiction].
  destruct (apply_entry_history ex_cfg 103 s 0 _ txs s' E Ev Hr Hh Hc Hrows) as (_ & [(_ & _ & Hx & _)|(_ & Hb & _)]).
  - rewrite Hhist in Hx. apply app_inv_head in Hx. discriminate.
  - repeat split; assumption.
Qed.

(* apply_held_history: the held conversion 602 looked at by the rated block 104 *)
Example apply_held_history_hyps :
  match ex_state 3 with
  | Some s =>
    match apply_held ex_cfg 104 ex_rates ex_rates s (ex_conversion 602 20) 102 with
    | Ok (s', isp) =>
      entry_valid_at ex_cfg (ex_conversion 602 20) 102 = Some ex_conv_txs /\
      no_deferred ex_cfg 104 ex_conv_txs = true /\
      convs_fit ex_cfg 104 ex_rates ex_rates ex_conv_txs = true /\
      rows_of 602 (htxs s) = map fst (history_rows_of 602 ex_conv_txs) /\
      isp = false /\ apply_batch ex_cfg 104 s 602 ex_conv_txs ex_rates ex_rates = BApplied s' /\
      get_bal (bal s') alice PTickerUSD = 80 /\ status_of s' 602 = [104]
    | _ => False
    end
  | None => False
  end.
Proof.
  unfold ex_state.
  destruct (done_witness (replay ex_cfg genesis empty_cache (firstn 3 ex_chain))
              (fun s _ => match apply_held ex_cfg 104 ex_rates ex_rates s (ex_conversion 602 20) 102 with
                          | Ok (s', isp) =>
                            (entry_valid_at ex_cfg (ex_conversion 602 20) 102 = Some ex_conv_txs /\
                             no_deferred ex_cfg 104 ex_conv_txs = true /\
                             convs_fit ex_cfg 104 ex_rates ex_rates ex_conv_txs = true /\
                             rows_of 602 (htxs s) = map fst (history_rows_of 602 ex_conv_txs)) /\
                            (get_bal (bal s') alice PTickerUSD = 80 /\ status_of s' 602 = [104]) /\
                            get_bal (bal s) alice PTickerUSD = 0
                          | _ => False
                          end)) as (s & m & -> & Q); [vm_compute; repeat split; reflexivity|].
  destruct (apply_held ex_cfg 104 ex_rates ex_rates s (ex_conversion 602 20) 102) as [[s' isp]| |] eqn:E; try exact Q.
  destruct Q as ((Hv & Hnd & Hfit & Hrows) & (Hb' & Hst) & Hb).
  (* the batch was executed: the other branch of the theorem leaves the balances alone *)
  destruct (apply_held_history ex_cfg 104 _ _ s _ 102 s' isp _ E Hv Hnd Hfit Hrows) as (Hisp & [(Ha & _)|(_ & Hx & _)]).
  - repeat split; assumption.
  - rewrite Hx, Hb in Hb'. discriminate.
Qed.

(* pay_winners_history: the winner of block 104 paid on the state after 103 *)
Example pay_winners_history_hyps :
  match ex_state 3 with
  | Some s =>
    match pay_winners s 1104 (v_winners (ex_verdict 104)) with
    | Ok s' =>
      payouts_fit (v_winners (ex_verdict 104)) = true /\
      length (winner_rows (v_winners (ex_verdict 104))) = 1%nat /\
      get_bal (bal s) bob PTickerPEG = 0 /\ get_bal (bal s') bob PTickerPEG = 5 /\
      rows_effect 0 bob PTickerPEG (winner_rows (v_winners (ex_verdict 104))) = 5
    | _ => False
    end
  | None => False
  end.
Proof. vm_compute. repeat split; reflexivity. Qed.

(* apply_factoid_block_history: alice burns 100 FCT in block 101 *)
Example apply_factoid_block_history_hyps :
  match apply_factoid_block 101 genesis [ex_burn 501 100] with
  | Ok s' =>
    length (burn_rows [ex_burn 501 100]) = 1%nat /\
    get_bal (bal s') alice PTickerFCT = 100 /\
    rows_effect 0 alice PTickerFCT (burn_rows [ex_burn 501 100]) = 100
  | _ => False
  end.
Proof. vm_compute. repeat split; reflexivity. Qed.

(* developers_payouts_history: the developer rewards of a payout height *)
Example developers_payouts_history_hyps :
  match fst (developers_payouts ex_cfg 576 1576 genesis) with
  | Ok s' =>
    (0 <? Z.of_nat (length (dev_rows ex_cfg 576))) = true /\
    length (htxs s') = length (dev_rows ex_cfg 576) /\
    (0 <? fold_right (fun r acc => ht_to_amount r + acc) 0 (dev_rows ex_cfg 576)) = true
  | _ => False
  end.
Proof. vm_compute. repeat split; reflexivity. Qed.

(* snapshot_payouts_history: two snapshots in a row on the final state of the example chain; the second one
   finds alice and bob in both snapshots and pays them *)
Example snapshot_payouts_history_hyps :
  match ex_state 4 with
  | Some s =>
    match snapshot_payouts ex_cfg 400 1400 ex_rates s with
    | Ok s1 =>
      match snapshot_payouts ex_cfg 401 1401 ex_rates s1 with
      | Ok s2 =>
        htxs s1 = htxs s /\ length (htxs s2) = S (S (length (htxs s1))) /\
        (get_bal (bal s1) alice PTickerPEG <? get_bal (bal s2) alice PTickerPEG) = true /\
        get_bal (bal s2) alice PTickerPEG - get_bal (bal s1) alice PTickerPEG =
          rows_effect 0 alice PTickerPEG (skipn (length (htxs s1)) (htxs s2))
      | _ => False
      end
    | _ => False
    end
  | None => False
  end.
Proof. vm_compute. repeat split; reflexivity. Qed.

Print Assumptions record_batch_history.
Print Assumptions apply_batch_history.
Print Assumptions record_batch_status.
Print Assumptions apply_entry_history.
Print Assumptions apply_held_history.
Print Assumptions pay_winners_history.
Print Assumptions apply_factoid_block_history.
Print Assumptions developers_payouts_history.
Print Assumptions snapshot_payouts_history.
