(* Lemmas/TotalityBlockExamples.v — the hypotheses of [step_block_total] hold on live-era blocks built on the
   example chain (a plain rated block with held batches and adversarial entries; a snapshot block with
   staking and developer payouts; an unrated block; the one-time activation heights), and witnesses on which the
   model really is Stuck / OracleMiss, each naming the hypothesis of [block_hyps] it violates (none is given for
   [mint_room], the sign of the cache and [held_batches_ok]).  Every Stuck witness is a recorded finding, a behaviour
   of a closed era (below 2.0.2), or breaks a hypothesis a third party cannot break.  What is evaluated is always a
   test of a state, never a state. *)
From Model Require Import Examples.
From Lemmas Require Import DbLemmas LedgerLemmas HistoryLemmas3 TotalityLemmas TotalityInvariant TotalityRange TotalityBlockParts TotalityHolding TotalityBlock TotalityChain.
From Gen Require Import Consts.
Open Scope Z_scope.
Open Scope list_scope.

Definition run (c : cfg) (bs : list block) : db * avgcache :=
  match replay c genesis empty_cache bs with Done r => r | _ => (empty_db, empty_cache) end.
Definition outcome_code {A} (o : outcome A) : Z :=
  match o with Done _ => 0 | Stuck code => code | Crashed code => -1000 - code | OracleMiss w => -w end.

(* live-era blocks on top of the example chain (ex_cfg: 2.0 at 400, 2.0.2 at 600, snapshots every 144) *)
Definition lv_verdict (h : Z) (assets : list (Z * Z)) : verdict :=
  {| v_winners := [{| w_hash := 9000 + h; w_addr := Some bob; w_payout := 5; w_pos := 0; w_height := h |};
                   {| w_hash := 9500 + h; w_addr := None; w_payout := 7; w_pos := 1; w_height := h |}];
     v_graded := [{| w_hash := 9000 + h; w_addr := Some bob; w_payout := 5; w_pos := 0; w_height := h |}];
     v_short := [h];
     v_assets := assets |}.
Definition lv_assets : list (Z * Z) := [(PTickerPEG, 200000000); (PTickerUSD, 100000000); (PTickerFCT, 400000000)].
Definition lv_opr (h : Z) (prev : option (list Z)) (assets : list (Z * Z)) : option opr_in :=
  Some {| oi_alts := [(5, prev, Some (lv_verdict h assets))] |}.
Definition ex_garbage (hs : hash) : entry := {| e_hash := hs; e_ts := 0; e_batch := None; e_rcde := false |}.

(* 649: unrated; brings a conversion (held), garbage, the same conversion again and an entry hash that is already executed *)
Definition blk649 : block :=
  ex_block 649 None (Some [ex_conversion 800 8; ex_garbage 801; ex_conversion 800 8; ex_transfer 601 30]) [].
(* 650: rated by the OPR winners: the held conversion executes; entries: a repeat, an overdraft, a transfer *)
Definition blk650 : block :=
  ex_block 650 (lv_opr 650 (Some [104]) lv_assets) (Some [ex_transfer 810 5; ex_transfer 810 5; ex_transfer 811 100000; ex_garbage 812]) [].
(* 720: a snapshot height: staking payouts, miners, developers *)
Definition blk720 : block :=
  ex_block 720 (lv_opr 720 (Some [650]) lv_assets) (Some [ex_conversion 820 3; ex_transfer 821 1]) [].
(* 864: the next snapshot height: now the minimum of two snapshots is positive and the stakers are paid *)
Definition blk864 : block :=
  ex_block 864 (lv_opr 864 (Some [720]) lv_assets) (Some [ex_transfer 840 2; ex_garbage 841]) [].
Definition lv_chain : list block := ex_chain ++ [blk649; blk650; blk720; blk864].

Definition cm648 := run ex_cfg ex_chain.
Definition cm649 := run ex_cfg (ex_chain ++ [blk649]).
Definition cm650 := run ex_cfg (ex_chain ++ [blk649; blk650]).
Definition cm720 := run ex_cfg (ex_chain ++ [blk649; blk650; blk720]).

Example block_hyps_649 : block_hypsb ex_cfg (fst cm648) (snd cm648) blk649 = true.
Proof. vm_compute. reflexivity. Qed.
Example block_hyps_650 : block_hypsb ex_cfg (fst cm649) (snd cm649) blk650 = true.
Proof. vm_compute. reflexivity. Qed.
Example block_hyps_720 : block_hypsb ex_cfg (fst cm650) (snd cm650) blk720 = true.
Proof. vm_compute. reflexivity. Qed.
Example block_hyps_864 : block_hypsb ex_cfg (fst cm720) (snd cm720) blk864 = true.
Proof. vm_compute. reflexivity. Qed.

(* a run ends in a state reached from the fresh database (or in the fresh database): both state
   hypotheses of the theorem hold there, and what is left to test is [block_hypsb] *)
Lemma run_ok c bs : hist_closed (fst (run c bs)) /\ bal_room (fst (run c bs)) 0.
Proof.
  unfold run. destruct (replay c genesis empty_cache bs) as [[s m]| | |] eqn:E; cbn [fst];
    [split; [exact (replay_closed c bs s m E)|exact (replay_range c bs s m E)]
    |split; [apply hist_closed_genesis|apply bal_room_genesis]..].
Qed.
Lemma step_block_total_run c bs b :
  block_hypsb c (fst (run c bs)) (snd (run c bs)) b = true ->
  exists s' mem', step_block c (fst (run c bs)) (snd (run c bs)) b = Done (s', mem') /\ hist_closed s' /\ bal_room s' 0 /\ cache_nonneg mem'.
Proof.
  intros H. destruct (run_ok c bs) as [Hc Hr].
  destruct (step_block_total c _ _ b Hc Hr (block_hypsb_spec _ _ _ _ H)) as (s' & mem' & H1 & H2 & H3 & H4 & _).
  exists s', mem'. exact (conj H1 (conj H2 (conj H3 H4))).
Qed.

Example step_block_total_650 :
  exists s' mem', step_block ex_cfg (fst cm649) (snd cm649) blk650 = Done (s', mem') /\ hist_closed s' /\ bal_room s' 0 /\ cache_nonneg mem'.
Proof. exact (step_block_total_run ex_cfg (ex_chain ++ [blk649]) blk650 block_hyps_650). Qed.
Example step_block_total_720 :
  exists s' mem', step_block ex_cfg (fst cm650) (snd cm650) blk720 = Done (s', mem') /\ hist_closed s' /\ bal_room s' 0 /\ cache_nonneg mem'.
Proof. exact (step_block_total_run ex_cfg (ex_chain ++ [blk649; blk650]) blk720 block_hyps_720). Qed.
Example step_block_total_864 :
  exists s' mem', step_block ex_cfg (fst cm720) (snd cm720) blk864 = Done (s', mem') /\ hist_closed s' /\ bal_room s' 0 /\ cache_nonneg mem'.
Proof. exact (step_block_total_run ex_cfg (ex_chain ++ [blk649; blk650; blk720]) blk864 block_hyps_864). Qed.

(* the chain-level theorem applied to the four live-era blocks, from the state after the example chain *)
Example replay_total_live_chain :
  exists s m, replay ex_cfg (fst cm648) (snd cm648) [blk649; blk650; blk720; blk864] = Done (s, m) /\ hist_closed s /\ bal_room s 0.
Proof.
  destruct (run_ok ex_cfg ex_chain) as [Hc Hr].
  apply (replay_total_along ex_cfg 649 _ _ _ (fun _ _ => True) Hc Hr); vm_compute; repeat split; reflexivity.
Qed.

(* what these blocks do: 800 held at 649 and executed at 650 (8 pFCT -> 32 pUSD), 810 executed once, 811 rejected, the
   miner paid; at 720 (first snapshot: no stake yet) a miner batch and one batch per developer; at 864 also the staking batch *)
Example lv_chain_effect :
  match replay ex_cfg genesis empty_cache lv_chain with
  | Done (s, _) =>
      map (fun r => (hb_hash r, hb_exec r)) (firstn 5 (skipn 5 (hist s))) = [(800, 650); (810, 650); (811, -1); (9650, 650); (820, 864)] /\
      hist_has s (mock_hash 720) = false /\ hist_has s (mock_hash 864) = true /\ hist_has s (mock_hash_dev 1 720) = true /\
      hist_has s (mock_hash_dev 14 864) = true /\ hist_has s 9864 = true /\
      get_bal (bal s) alice PTickerUSD = 80 + 32 + 12 /\ hist_closedb s = true /\ bal_roomb s 0 = true
  | _ => False
  end.
Proof. vm_compute. repeat split; reflexivity. Qed.

(* [live_era], bank era (the recorded finding): a held batch mixing a PEG request with spends of PEG: "uncaught: insufficient balance" *)
Definition ex_mixed : entry :=
  {| e_hash := 812; e_ts := 2000;
     e_batch := Some [{| tx_addr := bob; tx_type := PTickerFCT; tx_amt := 4; tx_transfers := []; tx_conv := PTickerPEG |};
                      {| tx_addr := bob; tx_type := PTickerPEG; tx_amt := 5; tx_transfers := [{| tr_addr := alice; tr_amt := 5 |}]; tx_conv := 0 |};
                      {| tx_addr := bob; tx_type := PTickerPEG; tx_amt := 5; tx_transfers := [{| tr_addr := alice; tr_amt := 5 |}]; tx_conv := 0 |}];
     e_rcde := false |}.
Definition opr_at (ver h : Z) (prev : option (list Z)) (assets : list (Z * Z)) : option opr_in :=
  Some {| oi_alts := [(ver, prev, Some (lv_verdict h assets))] |}.
Example excluded_bank_era_mixed_batch :
  outcome_code (replay ex_cfg genesis empty_cache
                  (ex_chain ++ [ex_block 349 None (Some [ex_mixed]) []; ex_block 350 (opr_at 4 350 (Some [104]) lv_assets) None []])) = E_UNCAUGHT.
Proof. vm_compute. reflexivity. Qed.

(* [live_era]: a snapshot height without rates before 2.0.2: the first snapshot is fine, at the second there are stakes and
   their conversion at rate 0 fails the block *)
Example excluded_snapshot_without_rates_before_202 :
  outcome_code (replay ex_cfg genesis empty_cache (ex_chain ++ [ex_block 432 None None []])) = 0 /\
  outcome_code (replay ex_cfg genesis empty_cache (ex_chain ++ [ex_block 432 None None []; ex_block 576 None None []])) = E_CONVERT.
Proof. vm_compute. split; reflexivity. Qed.

(* not a failure: the band failure before 2.0.2 returns nil: the block is Done, and ends before its transactions *)
Definition spr_at (ver h : Z) (assets : list (Z * Z)) : option spr_in :=
  Some {| si_entries := []; si_alts := [(ver, [], Some (lv_verdict (h + 50000) assets))] |}.
Definition blk450 : block :=
  {| b_height := 450; b_ts := 1450; b_opr := opr_at 5 450 (Some [104]) lv_assets;
     b_spr := spr_at 5 450 [(PTickerPEG, 200000000); (PTickerUSD, 300000000); (PTickerFCT, 400000000)];
     b_tx := Some [ex_transfer 830 1]; b_factoid := [] |}.
Example band_failure_before_202_is_done :
  match replay ex_cfg genesis empty_cache (ex_chain ++ [blk450]) with
  | Done (s, _) => hist_has s 830 = false /\ is_rated s 450 = false /\ synced s = Some 450
  | _ => False
  end.
Proof. vm_compute. repeat split; reflexivity. Qed.

(* [live_era], PEG priced by the equation: the SUM over a balance column leaves int64 although every cell is in range *)
Definition cm_big : db :=
  set_bal (fst cm648) (<[(alice, PTickerUSD) := 5000000000000000000]> (<[(bob, PTickerUSD) := 5000000000000000000]> (bal (fst cm648)))).
Example excluded_issuance_sum_overflow :
  bal_roomb cm_big 0 = true /\
  outcome_code (step_block ex_cfg cm_big empty_cache (ex_block 150 (opr_at 2 150 (Some [104]) lv_assets) None [])) = E_OVERFLOW_CELL.
Proof. vm_compute. split; reflexivity. Qed.

(* [coinbase_fresh]: an entry of the transaction chain carrying the hash of a developer payout of its own block (needs a
   preimage of a synthetic hash) *)
Definition blk720_collide : block :=
  ex_block 720 (lv_opr 720 (Some [650]) lv_assets) (Some [ex_transfer (mock_hash_dev 1 720) 1]) [].
Example excluded_synthetic_hash_collision :
  coinbase_freshb ex_cfg (fst cm650) blk720_collide = false /\
  outcome_code (step_block ex_cfg (fst cm650) (snd cm650) blk720_collide) = E_UNIQUE_HIST.
Proof. vm_compute. split; reflexivity. Qed.
(* [live_era]: before 2.0.2 the zeroing coinbase of NullifyBurnAddress and the staking payout of the same block share the
   mock hash of the height: a configuration in which V20DevRewardsHeightActivation is a snapshot height (not the mainnet's);
   from 2.0.2 on there is no zeroing coinbase *)
Definition cfg_576 : cfg := {|
  c_PegnetActivation := 100; c_GradingV2Activation := 100; c_TransactionConversionActivation := 100;
  c_PEGPricingActivation := 100; c_OneWaypFCTConversions := 100; c_PegnetConversionLimitActivation := 200;
  c_PEGFreeFloatingPriceActivation := 200; c_V4OPRUpdate := 300; c_V20HeightActivation := 400;
  c_V20DevRewardsHeightActivation := 576; c_SprSignatureActivation := 576; c_OneWaySmallAssetsConversions := 600;
  c_V202EnhanceActivation := 600; c_V204EnhanceActivation := 700; c_V204BurnMintedTokenActivation := 800;
  c_PIP10AverageActivation := 900; c_Fat2RCDEActivation := 300; c_AveragePeriod := 4 |}.
Example excluded_nullify_vs_staking_collision :
  outcome_code (replay cfg_576 genesis empty_cache
                  (ex_chain ++ [ex_block 432 None None []; ex_block 576 (opr_at 5 576 (Some [104]) lv_assets) None []])) = E_UNIQUE_HIST.
Proof. vm_compute. reflexivity. Qed.

(* [block_room]: a cell at max_int64 that the block credits (the miner's payout) *)
Definition cm_full : db := set_bal (fst cm649) (<[(bob, PTickerPEG) := max_int64]> (bal (fst cm649))).
Example excluded_cell_overflow :
  bal_roomb cm_full 0 = true /\ block_hypsb ex_cfg cm_full (snd cm649) blk650 = false /\
  outcome_code (step_block ex_cfg cm_full (snd cm649) blk650) = E_OVERFLOW_CELL.
Proof. vm_compute. repeat split; reflexivity. Qed.

(* [graders_answer]: the oracle table has no alternative for the key; NewGrader fails (OPR: code 20, SPR from 2.0 on: 21) *)
Example excluded_oracle_miss :
  outcome_code (step_block ex_cfg (fst cm649) (snd cm649) (ex_block 650 (lv_opr 650 None lv_assets) None [])) = -1.
Proof. vm_compute. reflexivity. Qed.
Example excluded_new_grader_error :
  outcome_code (step_block ex_cfg (fst cm649) (snd cm649) (ex_block 650 (Some {| oi_alts := [(5, Some [104], None)] |}) None [])) = 20 /\
  outcome_code (step_block ex_cfg (fst cm649) (snd cm649)
                  {| b_height := 650; b_ts := 1650; b_opr := None; b_spr := Some {| si_entries := []; si_alts := [(7, [], None)] |};
                     b_tx := None; b_factoid := [] |}) = 21.
Proof. vm_compute. split; reflexivity. Qed.

(* [sel_wf]: the winning record lists a name twice; a price does not fit a SQL argument *)
Example excluded_bad_assets :
  outcome_code (step_block ex_cfg (fst cm649) (snd cm649)
     (ex_block 650 (lv_opr 650 (Some [104]) [(PTickerPEG, 1); (PTickerUSD, 1); (PTickerUSD, 2)]) None [])) = E_UNIQUE_RATE /\
  outcome_code (step_block ex_cfg (fst cm649) (snd cm649)
     (ex_block 650 (lv_opr 650 (Some [104]) [(PTickerPEG, 1); (PTickerUSD, two63)]) None [])) = E_SQLARG.
Proof. vm_compute. split; reflexivity. Qed.

(* [fresh_at]: the same height twice *)
Example excluded_height_twice :
  fresh_atb 650 (fst cm650) = false /\
  outcome_code (step_block ex_cfg (fst cm650) (snd cm650) blk650) = E_UNIQUE_GRADE.
Proof. vm_compute. split; reflexivity. Qed.

(* [snapshot_ok]: a stake that is not a uint64 / whose conversion overflows (an address holding 2^62 pFCT at 4 USD) *)
Definition cm_whale : db := set_bal (fst cm650) (<[(alice, PTickerFCT) := 4611686018427387904]> (bal (fst cm650))).
Definition cm_whale2 : db := set_snaps cm_whale (bal cm_whale) (bal cm_whale).
Example excluded_stake_overflow :
  bal_roomb cm_whale2 0 = true /\ snapshot_ok ex_cfg cm_whale2 blk720 = false /\
  outcome_code (step_block ex_cfg cm_whale2 (snd cm650) blk720) = E_CONVERT.
Proof. vm_compute. repeat split; reflexivity. Qed.

(* [entries_ok]: TotalityExamples.v has the witnesses, on apply_entry (no_ticker_fails, burn_signer_fails) *)

(* the one-time activation heights of the live era are covered too: NullifyBurnAddress at 600 (2.0.2: the 3 pFCT sent to
   the burn address at 550 disappear), the mint at 700, the burn of the minted tokens at 800 *)
Definition ex_to_burn (hs amount : Z) : entry :=
  {| e_hash := hs; e_ts := 2000;
     e_batch := Some [{| tx_addr := alice; tx_type := PTickerFCT; tx_amt := amount;
                         tx_transfers := [{| tr_addr := GlobalBurnAddress; tr_amt := amount |}]; tx_conv := 0 |}];
     e_rcde := false |}.
Definition cmA := run ex_cfg (ex_chain ++ [ex_block 550 None (Some [ex_to_burn 845 3]) []]).
Definition act_blocks : list block :=
  [ex_block 600 None None []; blk649; blk650; ex_block 700 None (Some [ex_transfer 851 1]) []; blk720; ex_block 800 None None []].
(* the chain is run once: the per-block hypotheses along it, and what the state shows after the mint block
   and at the end *)
Lemma act_chain_run :
  along ex_cfg (fst cmA) (snd cmA) (firstn 4 act_blocks) (fun s4 m4 =>
    (get_bal (bal s4) GlobalBurnAddress PTickerFCT = 0 /\ get_bal (bal s4) GlobalMintAddress PTickerPEG = 33450961300000000) /\
    along ex_cfg s4 m4 (skipn 4 act_blocks) (fun s6 _ =>
      get_bal (bal s6) GlobalMintAddress PTickerPEG = 0 /\ synced s6 = Some 800)).
Proof. vm_compute. repeat split; reflexivity. Qed.

Example replay_total_activation_heights :
  plain_heightb ex_cfg 600 = false /\ plain_heightb ex_cfg 700 = false /\ plain_heightb ex_cfg 800 = false /\
  get_bal (bal (fst cmA)) GlobalBurnAddress PTickerFCT = 3 /\
  exists s m, replay ex_cfg (fst cmA) (snd cmA) act_blocks = Done (s, m) /\ hist_closed s /\ bal_room s 0.
Proof.
  split; [vm_compute; reflexivity|]. split; [vm_compute; reflexivity|]. split; [vm_compute; reflexivity|]. split; [vm_compute; reflexivity|].
  destruct (run_ok ex_cfg (ex_chain ++ [ex_block 550 None (Some [ex_to_burn 845 3]) []])) as [Hc Hr].
  apply (replay_total_along ex_cfg 600 act_blocks (fst cmA) (snd cmA) (fun _ _ => True) Hc Hr); [vm_compute; reflexivity|].
  change act_blocks with (firstn 4 act_blocks ++ skipn 4 act_blocks). apply along_app.
  generalize act_chain_run. apply along_impl. intros s4 m4 [_ H]. revert H. apply along_impl. intros _ _ _. exact I.
Qed.
Example activation_heights_effect :
  match replay ex_cfg (fst cmA) (snd cmA) (firstn 4 act_blocks), replay ex_cfg (fst cmA) (snd cmA) act_blocks with
  | Done (s4, _), Done (s6, _) =>
      get_bal (bal s4) GlobalBurnAddress PTickerFCT = 0 /\ get_bal (bal s4) GlobalMintAddress PTickerPEG = 33450961300000000 /\
      get_bal (bal s6) GlobalMintAddress PTickerPEG = 0 /\ synced s6 = Some 800
  | _, _ => False
  end.
Proof.
  pose proof act_chain_run as H4. pose proof act_chain_run as H6.
  eapply along_impl in H4; [|intros s m K; exact (proj1 K)].
  eapply along_impl in H6; [|intros s m K; exact (proj2 K)]. apply along_app in H6.
  apply along_spec in H4 as [_ (s4 & m4 & E4 & F4)]. apply along_spec in H6 as [_ (s6 & m6 & E6 & F6)].
  change (firstn 4 act_blocks ++ skipn 4 act_blocks) with act_blocks in E6.
  rewrite E4, E6. exact (conj (proj1 F4) (conj (proj2 F4) F6)).
Qed.
(* V20DevRewardsHeightActivation = 500 < 2.0.2 in ex_cfg: not a live-era height (the old burn address, zeroing coinbases) *)

(* [verdicts_wf] gives [sel_wf] *)
Example verdicts_wf_650 : verdicts_wf ex_cfg (fst cm649) blk650 = true.
Proof. vm_compute. reflexivity. Qed.

Print Assumptions step_block_total_864.
