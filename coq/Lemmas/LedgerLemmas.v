(* Lemmas/LedgerLemmas.v — the transaction-processing part of the ledger model (Model/Ledger.v):
   the amounts it moves are never negative; what each function can return (one inversion lemma per
   function, from the two loops of applyTransactionBatch up to ApplyTransactionBlock, and the logged
   credit of the rewarding writers); that all it does to the database is a sequence of ledger
   writes ([lwrites], DbLemmas.v); that batches are all-or-nothing. *)
From Model Require Import Ledger.
From Lemmas Require Import ArithLemmas DbLemmas.
From Gen Require Import Consts.
From Coq Require Import Lia.
Open Scope Z_scope.

Lemma has_dup_false_nodup l : has_dup l = false -> NoDup l.
Proof.
  induction l as [|x l IH]; cbn [has_dup]; intros H; [constructor|]. apply orb_false_elim in H as [H1 H2].
  constructor; [|apply IH; exact H2]. intros Hin. apply existsb_eqb_In in Hin. congruence.
Qed.

Lemma has_dup_txid_nodup l : has_dup_txid l = false -> NoDup l.
Proof.
  induction l as [|x l IH]; intros H; [constructor|]. cbn in H. apply orb_false_iff in H as [H1 H2]. constructor; [|apply IH; exact H2].
  intros Hin. assert (existsb (txid_eqb x) l = true); [|congruence]. apply existsb_exists. exists x. split; [exact Hin|apply txid_eqb_refl].
Qed.

Lemma payouts_keys bank (rs : requests) : map fst (payouts bank rs) = map fst rs.
Proof.
  unfold payouts. destruct rs as [|r0 rs0] eqn:E; [reflexivity|]. rewrite <- E. clear E.
  destruct (_ && _); [reflexivity|]. cbv zeta. destruct (dust_winner rs) as [w|]; [|apply map_fst_payout].
  etransitivity; [|apply (map_fst_payout rs bank (total_requested_big rs))].
  rewrite (map_map _ fst). apply map_ext. intros r. destruct (txid_eqb _ _); reflexivity.
Qed.

(* the sign half of [tx_amounts_okb] (Model/Ledger.v), which is all the writes need *)
Definition tx_amounts_ok (t : tx) : Prop :=
  0 <= tx_amt t /\ Forall (fun tr => 0 <= tr_amt tr) (tx_transfers t).
Definition txs_ok (txs : list tx) : Prop := Forall tx_amounts_ok txs.

Section WithCfg.
Variable c : cfg.

Lemma payout_big_nonneg r b t : 0 <= payout_big r b t.
Proof. unfold payout_big. destruct (_ || _); [lia|apply wrap64_nonneg]. Qed.

Lemma payouts_nonneg bank (rs : requests) :
  Forall (fun r => 0 <= snd r) rs -> Forall (fun r => 0 <= snd r) (payouts bank rs).
Proof.
  intros Hf. unfold payouts. destruct rs as [|r0 rs0] eqn:Ers; [constructor|]. rewrite <- Ers in *. clear Ers.
  destruct (_ && _); [exact Hf|].
  set (base := map (fun r => (fst r, payout_big (snd r) bank (total_requested_big rs))) rs).
  assert (Hb : Forall (fun r : txid * Z => 0 <= snd r) base).
  { unfold base. apply Forall_forall. intros x Hx. apply in_map_iff in Hx as (y & <- & _). cbn. apply payout_big_nonneg. }
  destruct (dust_winner rs); [|exact Hb].
  apply Forall_forall. intros x Hx. apply in_map_iff in Hx as (y & <- & Hy).
  destruct (txid_eqb _ _); cbn; [apply wrap64_nonneg|].
  rewrite Forall_forall in Hb. apply Hb; exact Hy.
Qed.

Lemma reqs_of_batch_nonneg h rates avgs hs txs : forall idx,
  Forall (fun r => 0 <= pr_amt r) (reqs_of_batch c h rates avgs hs idx txs).
Proof. induction txs as [|t txs IH]; intros idx; cbn [reqs_of_batch]; constructor; [apply wrap64_nonneg|apply IH]. Qed.

Lemma tx_amounts_okb_ok t : tx_amounts_okb t = true -> tx_amounts_ok t.
Proof.
  unfold tx_amounts_okb, tx_nonneg_okb, tx_amounts_ok. intros H. apply andb_prop in H as [H _]. apply andb_prop in H as [H1 H2]. split; [lia|].
  apply Forall_forall. intros tr Hin. rewrite forallb_forall in H2. specialize (H2 tr Hin). lia.
Qed.

(* Validate bounds the input amount by MaxInt64 *)
Lemma tx_amounts_okb_bound t : tx_amounts_okb t = true -> 0 <= tx_amt t <= max_int64.
Proof.
  unfold tx_amounts_okb, tx_nonneg_okb, tx_sum_okb. intros H. apply andb_prop in H as [H1 H2].
  apply andb_prop in H1 as [H1 _]. apply andb_prop in H2 as [H2 _]. lia.
Qed.

Lemma entry_valid_at_okb e h txs : entry_valid_at c e h = Some txs -> forallb tx_amounts_okb txs = true.
Proof.
  unfold entry_valid_at. destruct (e_batch e) as [b|]; [|discriminate].
  destruct (_ && _); [discriminate|]. destruct (forallb tx_amounts_okb b) eqn:E; [|discriminate].
  intros H; inversion H; subst. exact E.
Qed.

Lemma entry_valid_at_ok e h txs : entry_valid_at c e h = Some txs -> txs_ok txs.
Proof.
  intros H. apply entry_valid_at_okb in H. apply Forall_forall. intros t Hin. apply tx_amounts_okb_ok.
  rewrite forallb_forall in H. apply H; exact Hin.
Qed.

Lemma is_burn_inv f a v :
  is_burn f = Some (a, v) ->
  f_inputs f = [(a, v)] /\ f_outputs f = [] /\ f_ecoutputs f = [(BurnRCD, 0)] /\ 0 <= v.
Proof.
  unfold is_burn. destruct (f_ecoutputs f) as [|[ec amt] [|? ?]]; try discriminate.
  destruct (f_inputs f) as [|[a' v'] [|? ?]]; try discriminate.
  destruct (f_outputs f); try discriminate.
  destruct ((ec =? BurnRCD) && (amt =? 0) && (0 <=? v')) eqn:E; [|discriminate].
  intros H; inversion H; subst. apply andb_prop in E as [E E3]. apply andb_prop in E as [E1 E2].
  apply Z.eqb_eq in E1, E2. apply Z.leb_le in E3. subst. auto.
Qed.

Lemma is_conversion_valid_conv t : is_conversion t = true -> valid_ticker (tx_conv t) = true.
Proof. unfold is_conversion. destruct (tx_transfers t); [auto|discriminate]. Qed.

(* everything the first loop of applyTransactionBatch can answer, and when: it fails the block only
   through "rates must exist"; without conversions its only answer is "insufficient balance"; once
   it lets a batch through, every conversion of the batch converts *)
Lemma check_txs_result h s rates avgs txs :
  match check_txs c h s rates avgs txs with
  | None => Forall (fun t => is_conversion t = true -> conv_of c h rates avgs t <> None) txs
  | Some (BRejected code) => has_conversions txs = false -> code = -1
  | Some BDropped => has_conversions txs = true
  | Some (BFail _) => is_empty_map rates = true /\ has_conversions txs = true
  | Some (BApplied _) => False
  end.
Proof.
  induction txs as [|t txs IH]; cbn [check_txs]; [constructor|]. unfold has_conversions in *. cbn [existsb].
  destruct (_ <? tx_amt t); [intros _; reflexivity|].
  destruct (is_conversion t) eqn:Ec; cbn [orb].
  - destruct (is_empty_map rates) eqn:Ee; [split; reflexivity|].
    destruct (_ || _); [discriminate|]. destruct (_ && _); [discriminate|]. destruct (_ && _); [discriminate|].
    destruct (conv_of c h rates avgs t) eqn:Eo; [|reflexivity].
    destruct (check_txs c h s rates avgs txs) as [[s'|code| |code]|];
      [exact IH|discriminate|reflexivity|split; [apply IH|reflexivity]|constructor; [intros _; rewrite Eo; discriminate|exact IH]].
  - destruct (check_txs c h s rates avgs txs) as [r|]; [exact IH|constructor; [congruence|exact IH]].
Qed.

(* the second loop answers nothing, "insufficient balance", or a failed conversion *)
Lemma sim_txs_result h present rates avgs txs : forall m,
  match sim_txs c h present rates avgs m txs with
  | Some (BRejected code) => code = -1
  | Some (BApplied _) | Some BDropped => False
  | Some (BFail _) | None => True
  end.
Proof.
  induction txs as [|t txs IH]; intros m; cbn [sim_txs]; [exact I|].
  destruct (_ <? _); [reflexivity|]. destruct (is_conversion t); [|apply IH].
  destruct (conv_of c h rates avgs t); [apply IH|exact I].
Qed.

Lemma apply_batch_applied_is_record h s hs txs rates avgs s' :
  apply_batch c h s hs txs rates avgs = BApplied s' -> record_batch c h hs rates avgs txs s = Ok s'.
Proof.
  unfold apply_batch.
  pose proof (check_txs_result h s rates avgs txs) as R1. destruct (check_txs c h s rates avgs txs); [intros ->; contradiction|].
  pose proof (sim_txs_result h (map tx_addr txs) rates avgs txs (bal s)) as R2.
  destruct (sim_txs c h _ rates avgs (bal s) txs); [intros ->; contradiction|].
  destruct (record_batch c h hs rates avgs txs s); intros H; inversion H; reflexivity.
Qed.

Lemma check_txs_rejected_neg h s rates avgs txs code : check_txs c h s rates avgs txs = Some (BRejected code) -> code < 0.
Proof.
  induction txs as [|t txs IH]; cbn [check_txs]; [discriminate|].
  repeat match goal with |- (if ?b then _ else _) = _ -> _ => destruct b end;
    try (intros H; inversion H; lia); try exact IH; try discriminate.
Qed.
Lemma apply_batch_rejected_neg h s hs txs rates avgs code :
  apply_batch c h s hs txs rates avgs = BRejected code -> code < 0.
Proof.
  unfold apply_batch.
  destruct (check_txs c h s rates avgs txs) eqn:E1; [intros ->; eapply check_txs_rejected_neg; exact E1|].
  pose proof (sim_txs_result h (map tx_addr txs) rates avgs txs (bal s)) as R2.
  destruct (sim_txs c h _ rates avgs (bal s) txs); [intros ->; lia|].
  destruct (record_batch c h hs rates avgs txs s); discriminate.
Qed.

(* recordBatch on a non-empty batch: the debit, the relation row and the status; then nothing more
   (a PEG request from the conversion limit on), the converted credit, or the transfer outputs;
   then the rest of the batch *)
Lemma record_txs_cons_inv h hs rates avgs idx t txs s s' :
  record_txs c h hs rates avgs idx (t :: txs) s = Ok s' ->
  exists s1 s4, sub_from_balance s (tx_addr t) (tx_type t) (tx_amt t) = SubOk s1 /\
    (let s3 := set_executed (insert_relation s1 (tx_addr t) hs idx false (is_conversion t)) hs h in
     if (c_PegnetConversionLimitActivation c <=? h) && is_peg_request t then conv_of c h rates avgs t <> None /\ s4 = s3
     else if is_conversion t then
       exists out, conv_of c h rates avgs t = Some out /\
         add_to_balance (set_to_amount s3 hs idx out) (tx_addr t) (tx_conv t) (wrap64 out) = Ok s4
     else credit_transfers c h hs idx (tx_type t) (tx_transfers t) s3 = Ok s4) /\
    record_txs c h hs rates avgs (idx + 1) txs s4 = Ok s'.
Proof.
  cbn [record_txs]. destruct (sub_from_balance s _ _ _) as [s1| |code]; try discriminate.
  cbv zeta. intros H. exists s1.
  destruct (_ && is_peg_request t); [|destruct (is_conversion t)].
  - destruct (conv_of c h rates avgs t); [|discriminate]. eexists. split; [reflexivity|]. split; [split; [discriminate|reflexivity]|exact H].
  - destruct (conv_of c h rates avgs t) as [out|]; [|discriminate]. apply rbind_ok in H as (s5 & Hadd & H). exists s5. eauto 6.
  - apply rbind_ok in H as (s4 & Hc & H). exists s4. auto.
Qed.

(* one payout of recordPegnetRequests: nothing for a txid that is not among the requests; else
   the amounts are recorded, the yield credited, the refund credited *)
Lemma pay_request_inv h rates reqs s p s' :
  pay_request c h rates reqs s p = Ok s' ->
  match find (fun r => txid_eqb (pr_txid r) (fst p)) reqs with
  | None => s' = s
  | Some r => exists rf s2,
      add_to_balance (set_peg_request_amounts s (fst (fst p)) (snd (fst p)) (snd p) [(tx_addr (pr_tx r), rf)])
                     (tx_addr (pr_tx r)) (tx_conv (pr_tx r)) (snd p) = Ok s2 /\
      add_to_balance s2 (tx_addr (pr_tx r)) (tx_type (pr_tx r)) (wrap64 rf) = Ok s'
  end.
Proof.
  unfold pay_request. intros H. destruct (find _ reqs); [|inversion H; reflexivity].
  apply rbind_ok in H as (s2 & H1 & H2). eauto.
Qed.

(* recordPegnetRequests, for any enumeration of the payouts: no txid twice; every payout is paid; from V4OPRUpdate
   on the bank row is updated *)
Lemma record_peg_requests_ord_inv order h s batches rates avgs bankamt bh s' :
  record_peg_requests_ord c order h s batches rates avgs bankamt bh = Ok s' ->
  let reqs := flat_map (fun b => reqs_of_batch c h rates avgs (fst b) 0 (snd b)) batches in
  let rs := map (fun r => (pr_txid r, pr_amt r)) reqs in
  has_dup_txid (map pr_txid reqs) = false /\
  exists s1, fold_left (fun r p => let? s0 := r in pay_request c h rates reqs s0 p) (order (payouts bankamt rs)) (Ok s) = Ok s1 /\
             if c_V4OPRUpdate c <=? bh then update_bank s1 bh (sum_snd (payouts bankamt rs)) (total_requested rs) = Ok s'
             else s' = s1.
Proof.
  unfold record_peg_requests_ord. cbv zeta.
  destruct (has_dup_txid _); [discriminate|]. intros H. apply rbind_ok in H as (s1 & H1 & H2).
  split; [reflexivity|]. exists s1. split; [exact H1|].
  destruct (_ <=? bh); [exact H2|inversion H2; reflexivity].
Qed.

Lemma record_peg_requests_nil h s rates avgs bankamt bh :
  record_peg_requests c h s [] rates avgs bankamt bh = if c_V4OPRUpdate c <=? bh then update_bank s bh 0 0 else Ok s.
Proof. reflexivity. Qed.

(* the bank step that closes a held height before V4 does nothing when no request is pending *)
Lemma early_bank_step_nil cur s rates avgs :
  (if (c_PegnetConversionLimitActivation c <=? cur) && (cur <? c_V4OPRUpdate c)
   then let? s2 := record_peg_requests c cur s [] rates avgs BankBaseAmount (cur - 1) in Ok (s2, [])
   else Ok (s, [])) = Ok (s, @nil (hash * list tx)).
Proof.
  destruct (_ && _) eqn:Era; [|reflexivity]. rewrite record_peg_requests_nil.
  destruct (Z.leb_spec (c_V4OPRUpdate c) (cur - 1)); [lia|reflexivity].
Qed.

(* what ApplyTransactionBatchesInHolding can do with one held batch: nothing; a negative status and
   nothing else; or, the batch being valid and no replay, it is dropped or applied, and it joins the
   PEG requests of the block exactly in the bank era *)
Lemma apply_held_inv cur rates avgs s e hh s' isp :
  apply_held c cur rates avgs s e hh = Ok (s', isp) ->
  (s' = s /\ isp = false) \/
  (isp = false /\ exists code, code < 0 /\ s' = set_executed s (e_hash e) code) \/
  exists txs, entry_valid_at c e hh = Some txs /\ is_replay s (e_hash e) = false /\
              isp = (cur <? c_V20HeightActivation c) && (c_PegnetConversionLimitActivation c <=? cur) && has_peg_request txs /\
              (s' = s \/ apply_batch c cur s (e_hash e) txs rates avgs = BApplied s').
Proof.
  unfold apply_held. intros H.
  destruct (entry_valid_at c e hh) as [txs|] eqn:Ev; [|inversion H; auto].
  destruct (_ && has_peg_conversion txs); [inversion H; right; left; split; [reflexivity|exists (-2); split; [lia|reflexivity]]|].
  destruct (entry_valid_at c e cur); [|inversion H; right; left; split; [reflexivity|exists (-2); split; [lia|reflexivity]]].
  destruct (is_replay s (e_hash e)) eqn:Er; [inversion H; auto|].
  destruct (apply_batch c cur s (e_hash e) txs rates avgs) as [s2|code| |code] eqn:Eb; try discriminate;
    inversion H; subst; [eauto 8| |eauto 8].
  right; left. split; [reflexivity|]. exists code. split; [eapply apply_batch_rejected_neg; exact Eb|reflexivity].
Qed.

Lemma apply_held_height_strict cm cur rates avgs hh r :
  (forall st, r <> Ok st) -> forall st, apply_held_height c cm cur rates avgs hh r <> Ok st.
Proof. intros Hr st. destruct r; [exfalso; eapply Hr; reflexivity|discriminate..]. Qed.

Lemma history_rows_of_hash hs txs x : In x (history_rows_of hs txs) -> ht_hash (fst x) = hs.
Proof.
  unfold history_rows_of. match goal with |- In x (?g 0 txs) -> _ => set (go := g) end. generalize 0 as i.
  induction txs as [|t txs IH]; intros i; [intros []|].
  intros [<-|H]; [destruct (is_conversion t); reflexivity|eapply IH; exact H].
Qed.

Lemma history_rows_of_keys hs txs :
  map (fun x => (ht_hash (fst x), ht_index (fst x))) (history_rows_of hs txs) = map (pair hs) (zrange 0 (length txs)).
Proof.
  unfold history_rows_of. match goal with |- map _ (?g 0 txs) = _ => set (go := g) end. generalize 0 as i.
  induction txs as [|t txs IH]; intros i; [reflexivity|]. unfold go at 1. cbn [length zrange map]. fold go. rewrite IH.
  destruct (is_conversion t); reflexivity.
Qed.

Lemma insert_htx_fold {X} (f : db -> X -> res db) (row : X -> htx) (l : list X) :
  (forall s x s', In x l -> f s x = Ok s' -> exists lk, insert_htx s (row x) lk = Ok s') ->
  forall s s', fold_left (fun r x => let? s0 := r in f s0 x) l (Ok s) = Ok s' ->
  exists lks, s' = set_htxs s (htxs s ++ map row l) lks.
Proof.
  induction l as [|x l IH]; intros Hf s s' H.
  - inversion H; subst. exists (lookups s'). cbn [map]. rewrite app_nil_r. destruct s'; reflexivity.
  - apply fold_res_cons in H as (s1 & E & H). destruct (Hf _ _ _ (or_introl eq_refl) E) as (lk & Hi).
    apply insert_htx_ok in Hi as [_ ->].
    destruct (IH (fun s0 y s2 Hy => Hf s0 y s2 (or_intror Hy)) _ _ H) as (lks & ->). exists lks.
    cbn [map htxs set_htxs]. rewrite <- app_assoc. reflexivity.
Qed.

(* the history rows of an arriving entry: its batch row, then one pending row per transaction;
   nothing else changes but the lookup index *)
Lemma insert_history_ok s e order h txs s' :
  insert_history s e order h txs = Ok s' ->
  hist_has_at s (e_hash e) h = false /\
  exists lks,
    s' = set_htxs (set_hist s (hist s ++ [{| hb_hash := e_hash e; hb_height := h; hb_order := order; hb_ts := e_ts e; hb_exec := 0 |}]))
                  (htxs s ++ map fst (history_rows_of (e_hash e) txs)) lks.
Proof.
  unfold insert_history. intros H. apply rbind_ok in H as (s0 & H0 & H1). apply insert_hbatch_ok in H0 as [Hn ->].
  apply (insert_htx_fold _ fst) in H1 as (lks & ->); [eauto|]. intros s2 x s3 _ Hs. eexists. exact Hs.
Qed.

Lemma insert_history_bal s e order h txs s' : insert_history s e order h txs = Ok s' -> bal s' = bal s.
Proof. intros H. apply insert_history_ok in H as (_ & lks & ->). reflexivity. Qed.

(* ApplyTransactionBlock with one arriving entry: skipped, or its history rows are
   inserted and then it is put in holding, applied, rejected for an overdraft, or dropped *)
Lemma apply_entry_inv h s order e s' :
  apply_entry c h s order e = Ok s' ->
  s' = s \/
  exists txs s1, entry_valid_at c e h = Some txs /\ is_replay s (e_hash e) = false /\ hist_has s (e_hash e) = false /\
    insert_history s e order h txs = Ok s1 /\
    ((has_conversions txs = true /\ insert_holding s1 e h = Ok s') \/
     (has_conversions txs = false /\
      (apply_batch c h s1 (e_hash e) txs ∅ ∅ = BApplied s' \/ s' = set_executed s1 (e_hash e) (-1) \/ s' = s1))).
Proof.
  unfold apply_entry. intros H.
  destruct (entry_valid_at c e h) as [txs|] eqn:Ev; [|inversion H; auto].
  destruct (is_replay s (e_hash e)) eqn:Er; [inversion H; auto|].
  destruct (hist_has s (e_hash e)) eqn:Eh; [inversion H; auto|].
  apply rbind_ok in H as (s1 & H1 & H2). right. exists txs, s1. repeat (split; [auto; fail|]).
  destruct (has_conversions txs); [auto|]. right. split; [reflexivity|].
  destruct (apply_batch c h s1 (e_hash e) txs ∅ ∅) as [s2|code| |code]; try discriminate.
  - inversion H2; auto.
  - destruct (code =? -1); inversion H2; auto.
  - inversion H2; auto.
Qed.

(* ApplyTransactionBlock is a fold that carries the index beside the result; as far as the result
   goes it runs entry by entry and stops at the first error *)
Definition tx_fold (h : Z) (es : list entry) (i : Z) (r : res db) : res db :=
  snd (fold_left (fun acc e => let '(i, r) := acc in (i + 1, let? s' := r in apply_entry c h s' i e)) es (i, r)).
Lemma apply_tx_block_fold h s es : apply_tx_block c h s es = tx_fold h es 0 (Ok s).
Proof. reflexivity. Qed.
Lemma tx_fold_not_ok h es : forall i r, (forall s, r <> Ok s) -> tx_fold h es i r = r.
Proof.
  induction es as [|e es IH]; intros i r Hr; [reflexivity|]. unfold tx_fold in *. cbn [fold_left].
  destruct r as [s|code|code]; [exfalso; eapply Hr; reflexivity| |]; cbn [rbind]; apply IH; discriminate.
Qed.
Lemma tx_fold_cons h e es i s :
  tx_fold h (e :: es) i (Ok s) = let? s1 := apply_entry c h s i e in tx_fold h es (i + 1) (Ok s1).
Proof.
  unfold tx_fold at 1. cbn [fold_left rbind]. fold (tx_fold h es (i + 1) (apply_entry c h s i e)).
  destruct (apply_entry c h s i e); cbn [rbind]; [reflexivity| |]; apply tx_fold_not_ok; discriminate.
Qed.

Lemma apply_tx_block_invariant (P : db -> Prop) h es :
  (forall s i e s', In e es -> P s -> apply_entry c h s i e = Ok s' -> P s') ->
  forall s s', P s -> apply_tx_block c h s es = Ok s' -> P s'.
Proof.
  intros Hstep s s'. rewrite apply_tx_block_fold. generalize 0 as i. revert s.
  induction es as [|e es IH]; intros s i Hp H; [inversion H; subst; exact Hp|].
  rewrite tx_fold_cons in H. apply rbind_ok in H as (s1 & E & H).
  eapply (IH (fun s0 j e0 s2 Hin => Hstep s0 j e0 s2 (or_intror Hin))); [|exact H].
  exact (Hstep s i e s1 (or_introl eq_refl) Hp E).
Qed.

(* the three statements of every rewarding writer (miner and staker rewards, burns, developer
   payouts): a credit, the batch row, the transaction row.  They succeed exactly when the cell has
   room and neither row is there, and then write exactly this *)
Definition credit_logged (s : db) (a : addr) (t : ticker) (v : Z) (hb : hbatch) (r : htx) (lk : list addr) : res db :=
  let? s1 := add_to_balance s a t v in let? s2 := insert_hbatch s1 hb in insert_htx s2 r lk.

Lemma credit_logged_iff s a t v hb r lk s' :
  credit_logged s a t v hb r lk = Ok s' <->
  valid_ticker t = true /\ v < two63 /\ get_bal (bal s) a t + v <= max_int64 /\
  hist_has_at s (hb_hash hb) (hb_height hb) = false /\ htx_has s (ht_hash r) (ht_index r) = false /\
  s' = set_htxs (set_hist (set_bal s (<[(a, t) := get_bal (bal s) a t + v]> (bal s))) (hist s ++ [hb])) (htxs s ++ [r])
                (fold_left (fun l x => add_lookup l (ht_hash r, ht_index r, x)) lk (lookups s)).
Proof.
  unfold credit_logged. split.
  - intros H. apply rbind_ok in H as (s1 & H1 & H). apply rbind_ok in H as (s2 & H2 & H3).
    apply add_to_balance_iff in H1 as (Ht & Hv & Hm & ->). apply insert_hbatch_ok in H2 as [Hh ->].
    apply insert_htx_ok in H3 as [Hx ->]. auto 6.
  - intros (Ht & Hv & Hm & Hh & Hx & ->).
    rewrite (proj2 (add_to_balance_iff s a t v _) (conj Ht (conj Hv (conj Hm eq_refl)))). cbn [rbind].
    unfold insert_hbatch, insert_htx.
    change (hist_has_at (set_bal s _) (hb_hash hb) (hb_height hb)) with (hist_has_at s (hb_hash hb) (hb_height hb)). rewrite Hh. cbn [rbind].
    change (htx_has (set_hist _ _) (ht_hash r) (ht_index r)) with (htx_has s (ht_hash r) (ht_index r)). rewrite Hx. reflexivity.
Qed.

Lemma credit_logged_inv s a t v r x lk s' :
  credit_logged s a t v r x lk = Ok s' -> exists s1, add_to_balance s a t v = Ok s1 /\ bal s' = bal s1.
Proof.
  intros H. apply credit_logged_iff in H as (Ht & Hv & Hm & _ & _ & ->).
  exists (set_bal s (<[(a, t) := get_bal (bal s) a t + v]> (bal s))). split; [apply add_to_balance_iff; auto|reflexivity].
Qed.

Context {K : Prop}.

Lemma add_writes rw ex s a t v s' : 0 <= v -> add_to_balance s a t v = Ok s' -> lwrites K rw ex s s'.
Proof. intros Hv H. eapply lwrites_step, l_add; eassumption. Qed.

Lemma credit_transfers_writes h hs idx ty trs s s' :
  Forall (fun tr => 0 <= tr_amt tr) trs -> credit_transfers c h hs idx ty trs s = Ok s' -> lwrites K false true s s'.
Proof.
  intros Hf. rewrite Forall_forall in Hf. unfold credit_transfers. apply lwrites_fold. intros s0 tr s1 Hin H.
  destruct (tr_addr tr =? burn_addr c h); [inversion H; reflexivity|].
  apply rbind_ok in H as (s2 & Ha & Hr). inversion Hr; subst. transitivity s2; [eapply add_writes; eauto|apply lwrites_step, l_rel].
Qed.

Lemma record_txs_writes h hs rates avgs txs : forall idx s s',
  txs_ok txs -> record_txs c h hs rates avgs idx txs s = Ok s' -> lwrites K false true s s'.
Proof.
  induction txs as [|t txs IH]; intros idx s s' Hok H; [inversion H; reflexivity|].
  inversion Hok as [|? ? [Ha Htr] Hok']; subst.
  apply record_txs_cons_inv in H as (s1 & s4 & Es & Hmid & Hrest). cbv zeta in Hmid.
  set (s2 := insert_relation s1 (tx_addr t) hs idx false (is_conversion t)) in *.
  set (s3 := set_executed s2 hs h) in *.
  transitivity s3; [transitivity s1; [eapply lwrites_step, l_sub; [intros _; exact Ha|exact Es]|transitivity s2; apply lwrites_step; constructor]|].
  transitivity s4; [|eapply IH; eassumption].
  destruct (_ && is_peg_request t); [destruct Hmid as [_ ->]; reflexivity|]. destruct (is_conversion t).
  - destruct Hmid as (out & _ & Hadd).
    transitivity (set_to_amount s3 hs idx out); [apply lwrites_step, l_amt|eapply add_writes; [apply wrap64_nonneg|exact Hadd]].
  - eapply credit_transfers_writes; eassumption.
Qed.

Lemma apply_batch_writes h s hs txs rates avgs s' :
  txs_ok txs -> apply_batch c h s hs txs rates avgs = BApplied s' -> lwrites K false true s s'.
Proof. intros Hok H. apply apply_batch_applied_is_record in H. eapply record_txs_writes; eassumption. Qed.

Lemma pay_request_writes h rates reqs s p s' : 0 <= snd p -> pay_request c h rates reqs s p = Ok s' -> lwrites K false true s s'.
Proof.
  intros Hp H. apply pay_request_inv in H. destruct (find _ reqs); [|subst s'; reflexivity].
  destruct H as (rf & s2 & H1 & H2).
  etransitivity; [apply lwrites_step, l_peg|]. transitivity s2; [eapply add_writes; eassumption|eapply add_writes; [apply wrap64_nonneg|exact H2]].
Qed.

Lemma record_peg_requests_writes h s batches rates avgs bankamt bh s' :
  record_peg_requests c h s batches rates avgs bankamt bh = Ok s' -> lwrites K false true s s'.
Proof.
  intros H. apply (record_peg_requests_ord_inv (fun l => l)) in H as (_ & s1 & H1 & H2).
  transitivity s1; [|destruct (_ <=? bh); [eapply lwrites_step, l_ubank; exact H2|subst s'; reflexivity]].
  revert H1. apply lwrites_fold. intros s0 p s2 Hin. apply pay_request_writes.
  revert p Hin. apply Forall_forall, payouts_nonneg, Forall_forall.
  intros x Hx. apply in_map_iff in Hx as (y & <- & Hy). cbn. apply in_flat_map in Hy as (b & _ & Hy).
  revert y Hy. apply Forall_forall, reqs_of_batch_nonneg.
Qed.

Lemma apply_held_writes cur rates avgs s e hh s' isp : apply_held c cur rates avgs s e hh = Ok (s', isp) -> lwrites K false true s s'.
Proof.
  intros H. apply apply_held_inv in H as [[-> _]|[(_ & code & _ & ->)|(txs & Ev & _ & _ & [->|Hb])]];
    [reflexivity|apply lwrites_step, l_exec|reflexivity|].
  eapply apply_batch_writes; [eapply entry_valid_at_ok|]; eassumption.
Qed.

Lemma apply_held_height_writes cm cur rates avgs hh s pegs s' pegs' :
  apply_held_height c cm cur rates avgs hh (Ok (s, pegs)) = Ok (s', pegs') -> lwrites K false true s s'.
Proof.
  unfold apply_held_height. cbn [rbind]. intros H. apply rbind_ok in H as ([s1 pegs1] & H1 & H2).
  transitivity s1.
  - refine (fold_res_invariant (fun st => lwrites K false true s (fst st)) _ _ _ (s, pegs) (s1, pegs1) _ H1); [|reflexivity].
    intros [s0 p0] e [s2 p2] Hp Hs. cbn [fst] in *.
    apply rbind_ok in Hs as ([s3 isp] & Ha & Hr). inversion Hr; subst.
    transitivity s0; [exact Hp|eapply apply_held_writes; exact Ha].
  - destruct (_ && _); [|inversion H2; reflexivity].
    apply rbind_ok in H2 as (s2 & Hr & Hk). inversion Hk; subst. eapply record_peg_requests_writes; exact Hr.
Qed.

Lemma apply_holding_writes cm cur s rates avgs s' : apply_holding c cm cur s rates avgs = Ok s' -> lwrites K false true s s'.
Proof.
  unfold apply_holding. intros H. cbv zeta in H. apply rbind_ok in H as ([s1 pegs] & H1 & H2).
  transitivity s1.
  - refine (fold_strict_invariant (fun st => lwrites K false true s (fst st)) _ _ _ _ (s, []) (s1, pegs) _ H1);
      [intros hh; apply apply_held_height_strict| |reflexivity].
    intros [s0 p0] hh [s2 p2] _ Hp Hs. transitivity s0; [exact Hp|eapply apply_held_height_writes; exact Hs].
  - destruct (_ && _); [|inversion H2; reflexivity].
    destruct (bank s1 !! cur) as [[[am ?] ?]|]; eapply record_peg_requests_writes; exact H2.
Qed.

Lemma insert_history_writes s e order h txs s' :
  insert_history s e order h txs = Ok s' -> lwrites K true false s s' /\ hist_has s' (e_hash e) = true.
Proof.
  unfold insert_history. intros H. apply rbind_ok in H as (s1 & H1 & H2).
  refine (fold_res_invariant_in (fun x => lwrites K true false s x /\ hist_has x (e_hash e) = true) _ _ _ s1 s' _ H2).
  - intros s0 x s2 Hin [Hp Hh] Hi. split; [|unfold hist_has; rewrite (hist_insert_htx _ _ _ _ Hi); exact Hh].
    transitivity s0; [exact Hp|]. eapply lwrites_step, l_htx; [|exact Hi]. rewrite (history_rows_of_hash _ _ _ Hin). exact Hh.
  - split; [eapply lwrites_step, l_hb; exact H1|exact (hist_has_insert_hbatch _ _ _ H1)].
Qed.

Lemma apply_entry_writes h s order e s' : apply_entry c h s order e = Ok s' -> lwrites K true true s s'.
Proof.
  intros H. apply apply_entry_inv in H as [->|(txs & s1 & Ev & _ & _ & H1 & H2)]; [reflexivity|].
  apply insert_history_writes in H1 as [H1 Hh]. transitivity s1; [revert H1; apply lwrites_le; reflexivity|].
  destruct H2 as [[_ H2]|[_ [H2|[->| ->]]]]; [eapply lwrites_step, l_hold; eassumption| |apply lwrites_step, l_exec|reflexivity].
  eapply lwrites_le, apply_batch_writes; [reflexivity..|eapply entry_valid_at_ok|]; eassumption.
Qed.

Lemma apply_tx_block_writes h s es s' : apply_tx_block c h s es = Ok s' -> lwrites K true true s s'.
Proof.
  apply (apply_tx_block_invariant (lwrites K true true s)); [|reflexivity].
  intros s0 i e s1 _ Hp H. transitivity s0; [exact Hp|eapply apply_entry_writes; exact H].
Qed.

Lemma credit_logged_writes s a t v r x lk s' : 0 <= v -> ht_hash x = hb_hash r ->
  credit_logged s a t v r x lk = Ok s' -> lwrites K true false s s'.
Proof.
  intros Hv Hx H. apply rbind_ok in H as (s1 & H1 & H). apply rbind_ok in H as (s2 & H2 & H3).
  transitivity s1; [eapply add_writes; eassumption|]. transitivity s2; [eapply lwrites_step, l_hb; exact H2|].
  eapply lwrites_step, l_htx; [rewrite Hx; exact (hist_has_insert_hbatch _ _ _ H2)|exact H3].
Qed.

Lemma apply_factoid_block_writes h s fs s' : apply_factoid_block h s fs = Ok s' -> lwrites K true false s s'.
Proof.
  unfold apply_factoid_block. apply lwrites_fold. intros s0 f s1 _ H.
  destruct (is_burn f) as [[a v]|] eqn:Eb; [|inversion H; reflexivity].
  eapply credit_logged_writes; [| |exact H]; [apply is_burn_inv in Eb; apply Eb|reflexivity].
Qed.

Lemma pay_winners_writes s ts ws s' : pay_winners s ts ws = Ok s' -> lwrites K true false s s'.
Proof.
  unfold pay_winners. apply lwrites_fold. intros s0 w s1 _ H.
  destruct (w_addr w) as [a|]; [|inversion H; reflexivity].
  eapply credit_logged_writes; [| |exact H]; [apply wrap64_nonneg|reflexivity].
Qed.

(* a held batch: either no balance changes at all (skipped, invalid, replay, rejected with any code,
   dropped), or the complete batch was recorded *)
Lemma apply_held_all_or_nothing cur rates avgs s e hh s' isp :
  apply_held c cur rates avgs s e hh = Ok (s', isp) ->
  bal s' = bal s \/
  exists txs, entry_valid_at c e hh = Some txs /\ record_batch c cur (e_hash e) rates avgs txs s = Ok s'.
Proof.
  intros H. apply apply_held_inv in H as [[-> _]|[(_ & code & _ & ->)|(txs & Ev & _ & _ & [->|Hb])]]; [auto..|].
  right. exists txs. split; [exact Ev|apply apply_batch_applied_is_record; exact Hb].
Qed.

(* an entry arriving in a block: history rows are inserted (no balance involved), then either
   nothing, or holding, or the complete batch *)
Lemma apply_entry_all_or_nothing h s order e s' :
  apply_entry c h s order e = Ok s' ->
  bal s' = bal s \/
  exists txs s1, entry_valid_at c e h = Some txs /\ has_conversions txs = false /\ bal s1 = bal s /\
                 record_batch c h (e_hash e) ∅ ∅ txs s1 = Ok s'.
Proof.
  intros H. apply apply_entry_inv in H as [->|(txs & s1 & Ev & _ & _ & H1 & H2)]; [auto|].
  apply insert_history_bal in H1.
  destruct H2 as [[_ H2]|[Hc [H2|[->| ->]]]]; [apply insert_holding_ok in H2 as [_ ->]; left; exact H1| |auto..].
  right. exists txs, s1. repeat split; auto. apply apply_batch_applied_is_record; exact H2.
Qed.

(* the first debit of a batch being recorded is covered by the balance at that very moment (or is not
   a debit: amount zero or negative); every later one is the first of the rest *)
Lemma record_txs_first_debit_covered h hs rates avgs idx t txs s s' :
  record_txs c h hs rates avgs idx (t :: txs) s = Ok s' ->
  tx_amt t = 0 \/ tx_amt t < 0 \/ 0 < tx_amt t <= get_bal (bal s) (tx_addr t) (tx_type t).
Proof.
  intros H. apply record_txs_cons_inv in H as (s1 & _ & Es & _). apply sub_from_balance_ok in Es as (_ & Hr & _). tauto.
Qed.

End WithCfg.
