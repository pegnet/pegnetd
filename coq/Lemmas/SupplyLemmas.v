(* Lemmas/SupplyLemmas.v — per-asset supply (the column sums of pn_addresses) under the storage
   operations: the basis of C04 (value is created or destroyed only by protocol events). *)
From Model Require Import Ledger.
From Lemmas Require Import DbLemmas LedgerLemmas.
From Coq Require Import Lia.
Open Scope Z_scope.

Definition supply_step (t : ticker) (k : addr * ticker) (v : Z) (acc : Z) : Z := if snd k =? t then acc + v else acc.

Lemma supply_of_unfold m t : supply_of m t = map_fold (supply_step t) 0 m.
Proof. reflexivity. Qed.

Lemma supply_step_comm t j1 j2 z1 z2 y :
  supply_step t j1 z1 (supply_step t j2 z2 y) = supply_step t j2 z2 (supply_step t j1 z1 y).
Proof. unfold supply_step. destruct (snd j1 =? t), (snd j2 =? t); lia. Qed.

Lemma supply_insert_fresh m k v t :
  m !! k = None -> supply_of (<[k := v]> m) t = supply_of m t + (if snd k =? t then v else 0).
Proof.
  intros Hn. rewrite !supply_of_unfold.
  rewrite (map_fold_insert_L (supply_step t) 0 k v m); [|intros; apply supply_step_comm|exact Hn].
  set (X := map_fold (supply_step t) 0 m). clearbody X. unfold supply_step, ticker, addr in *. destruct (snd k =? t); lia.
Qed.

Lemma supply_insert m a t v t' :
  supply_of (<[(a, t) := v]> m) t' = supply_of m t' + (if t =? t' then v - get_bal m a t else 0).
Proof.
  unfold ticker, addr in *.
  destruct (m !! (a, t)) as [old|] eqn:E.
  - assert (G : get_bal m a t = old) by (unfold get_bal, ticker, addr in *; rewrite E; reflexivity). rewrite G.
    pose proof (supply_insert_fresh (delete (a, t) m) (a, t) old t' (lookup_delete m (a, t))) as F2.
    rewrite (insert_delete m (a, t) old E) in F2.
    pose proof (supply_insert_fresh (delete (a, t) m) (a, t) v t' (lookup_delete m (a, t))) as F1.
    rewrite (insert_delete_insert m (a, t) v) in F1.
    unfold ticker, addr in *. rewrite F1, F2. cbn [snd]. destruct (t =? t'); lia.
  - assert (G : get_bal m a t = 0) by (unfold get_bal, ticker, addr in *; rewrite E; reflexivity). rewrite G.
    pose proof (supply_insert_fresh m (a, t) v t' E) as F1. unfold ticker, addr in *. rewrite F1. cbn [snd]. destruct (t =? t'); lia.
Qed.

Lemma supply_empty t : supply_of ∅ t = 0.
Proof. rewrite supply_of_unfold. apply map_fold_empty. Qed.

(* AddToBalance creates exactly v units of asset t; SubFromBalance destroys exactly v *)
Lemma supply_add s a t v s' t' :
  add_to_balance s a t v = Ok s' -> supply s' t' = supply s t' + (if t =? t' then v else 0).
Proof.
  intros H. apply add_to_balance_ok in H as (_ & _ & ->). unfold supply; cbn.
  rewrite supply_insert. destruct (t =? t'); lia.
Qed.
Lemma supply_sub s a t v s' t' :
  sub_from_balance s a t v = SubOk s' -> supply s' t' = supply s t' - (if t =? t' then v else 0).
Proof.
  intros H. apply sub_from_balance_ok in H as (_ & _ & _ & ->). unfold supply; cbn.
  rewrite supply_insert. destruct (t =? t'); lia.
Qed.

Section WithCfg.
Variable c : cfg.

Definition burned_out (h : Z) (trs : list transfer) : Z :=
  fold_right (fun tr acc => (if tr_addr tr =? burn_addr c h then tr_amt tr else 0) + acc) 0 trs.
Definition sum_out (trs : list transfer) : Z := fold_right (fun tr acc => tr_amt tr + acc) 0 trs.

Lemma supply_credit_transfers h hs idx ty trs s s' t' :
  credit_transfers c h hs idx ty trs s = Ok s' ->
  supply s' t' = supply s t' + (if ty =? t' then sum_out trs - burned_out h trs else 0).
Proof.
  intros H. unfold credit_transfers in H.
  apply (fold_res_sum (fun s => supply s t')
           (fun tr => if ty =? t' then (if tr_addr tr =? burn_addr c h then 0 else tr_amt tr) else 0)) in H.
  - rewrite H, fold_right_if. destruct (ty =? t'); [|reflexivity]. f_equal. unfold sum_out, burned_out. clear H.
    induction trs as [|tr trs IH]; cbn [fold_right]; [reflexivity|]. rewrite IH. destruct (_ =? burn_addr c h); lia.
  - intros s0 tr s1 _ Hs. destruct (tr_addr tr =? burn_addr c h); [inversion Hs; destruct (ty =? t'); lia|].
    apply rbind_ok in Hs as (s2 & Ha & Hr). inversion Hr; subst s1.
    unfold supply at 1. rewrite bal_insert_relation. exact (supply_add _ _ _ _ _ t' Ha).
Qed.

(* what recording one transaction does to the supply of asset t' *)
Definition tx_delta (h : Z) (rates avgs : gmap ticker Z) (t : tx) (t' : ticker) : Z :=
  (if tx_type t =? t' then - tx_amt t else 0) +
  (if (c_PegnetConversionLimitActivation c <=? h) && is_peg_request t then 0
   else if is_conversion t then
     match conv_of c h rates avgs t with
     | Some out => if tx_conv t =? t' then wrap64 out else 0
     | None => 0
     end
   else if tx_type t =? t' then sum_out (tx_transfers t) - burned_out h (tx_transfers t) else 0).
Definition txs_delta h rates avgs (txs : list tx) (t' : ticker) : Z :=
  fold_right (fun t acc => tx_delta h rates avgs t t' + acc) 0 txs.

Theorem supply_record_txs h hs rates avgs txs t' : forall idx s s',
  record_txs c h hs rates avgs idx txs s = Ok s' ->
  supply s' t' = supply s t' + txs_delta h rates avgs txs t'.
Proof.
  induction txs as [|t txs IH]; intros idx s s' H; [inversion H; subst; cbn; lia|].
  cbn [txs_delta fold_right]. fold (txs_delta h rates avgs txs t').
  apply record_txs_cons_inv in H as (s1 & s4 & Es & Hmid & Hrest). cbv zeta in Hmid.
  pose proof (supply_sub _ _ _ _ _ t' Es) as E1.
  set (s3 := set_executed (insert_relation s1 (tx_addr t) hs idx false (is_conversion t)) hs h) in *.
  assert (E3 : supply s3 t' = supply s1 t') by exact (f_equal (fun m => supply_of m t') (bal_insert_relation _ _ _ _ _ _)).
  rewrite (IH _ _ _ Hrest). unfold tx_delta.
  destruct (_ && is_peg_request t); [destruct Hmid as [_ ->]; rewrite E3, E1; destruct (tx_type t =? t'); lia|].
  destruct (is_conversion t).
  - destruct Hmid as (out & -> & Hadd). rewrite (supply_add _ _ _ _ _ t' Hadd).
    unfold supply at 1. rewrite bal_set_to_amount. fold (supply s3 t'). rewrite E3, E1.
    destruct (tx_type t =? t'), (tx_conv t =? t'); lia.
  - rewrite (supply_credit_transfers _ _ _ _ _ _ _ t' Hmid), E3, E1. destruct (tx_type t =? t'); lia.
Qed.

(* C04, second sentence: a transfer whose outputs add up to its input and that names no burn
   address creates and destroys nothing, in any asset *)
Corollary transfer_conserves h rates avgs t t' :
  is_conversion t = false -> is_peg_request t = false ->
  sum_out (tx_transfers t) = tx_amt t -> burned_out h (tx_transfers t) = 0 ->
  tx_delta h rates avgs t t' = 0.
Proof.
  intros Hc Hp Hs Hb. unfold tx_delta. rewrite Hc, Hp, andb_false_r, Hs, Hb.
  destruct (tx_type t =? t'); lia.
Qed.
End WithCfg.
