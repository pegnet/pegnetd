(* Lemmas/ExecExact.v — C07 / C13: a conversion that the admission rule lets through is executed
   exactly: one debit of the input, one credit of floor(input x src / dst) computed from the rates and
   averages handed to applyTransactionBatch, nobody else's balance moves.  Stated for the batch
   (single_conversion_executes_exactly; the room conditions are also necessary), for one held entry
   (held_conversion_executes_exactly), for the whole holding pass over a holding table with that one
   entry (apply_holding_single_conversion), and at block level (sync_block_rated_dichotomy,
   sync_block_holding_uses_own_rates): the rates handed to apply_holding are the ones THIS block
   inserted. *)
From Model Require Import Block Examples.
From Lemmas Require Import ArithLemmas DbLemmas LedgerLemmas BlockLemmas StatusLemmas
     AdmissionLemmas HistoryLemmas.
From Gen Require Import Consts.
From Coq Require Import Lia ZifyBool RelationClasses.
Open Scope Z_scope.
Open Scope list_scope.

Section WithCfg.
Variable c : cfg.

Lemma check_single_funded h s rates avgs t :
  is_conversion t = true -> check_txs c h s rates avgs [t] = None ->
  tx_amt t <= get_bal (bal s) (tx_addr t) (tx_type t).
Proof.
  intros Hc H. cbn [check_txs] in H. rewrite Hc in H.
  destruct (Z.ltb_spec (get_bal (bal s) (tx_addr t) (tx_type t)) (tx_amt t)); [discriminate|lia].
Qed.

(* The room a single conversion needs, cell by cell (nothing is asked of any other cell, nor of the
   column sums: AddToBalance / SubFromBalance only look at the cell they update):
     - the input column exists (SelectPendingBalance / the upsert would fail otherwise);
     - the input amount can be bound as a SQL argument (always true of a decoded batch: Validate
       bounds it by MaxInt64);
     - a zero-amount debit is the upsert "col = col + 0": the cell must be inside int64;
     - the credited cell — after the debit when source and destination are the same column — plus the
       converted amount stays inside int64. *)
Definition conv_room (s : db) (t : tx) (out : Z) : Prop :=
  valid_ticker (tx_type t) = true /\
  tx_amt t < two63 /\
  (tx_amt t = 0 -> get_bal (bal s) (tx_addr t) (tx_type t) <= max_int64) /\
  get_bal (bal s) (tx_addr t) (tx_conv t) - (if tx_conv t =? tx_type t then tx_amt t else 0) + out <= max_int64.

Lemma conv_room_of_cells s t out :
  valid_ticker (tx_type t) = true ->
  0 <= tx_amt t <= get_bal (bal s) (tx_addr t) (tx_type t) ->
  get_bal (bal s) (tx_addr t) (tx_type t) <= max_int64 ->
  get_bal (bal s) (tx_addr t) (tx_conv t) + out <= max_int64 ->
  conv_room s t out.
Proof.
  intros Hv Ha Hm Hc. unfold conv_room. repeat split; auto.
  - unfold two63, max_int64 in *. lia.
  - destruct (tx_conv t =? tx_type t); lia.
Qed.

Definition conv_floor_spec (h : Z) (rates avgs : gmap ticker Z) (t : tx) (out : Z) : Prop :=
  let pip10 := c_PIP10AverageActivation c <=? h in
  let rs := rate_src pip10 (rate_of rates (tx_type t)) (rate_of avgs (tx_type t)) in
  let rd := rate_dst pip10 (rate_of rates (tx_conv t)) (rate_of avgs (tx_conv t)) in
  out = tx_amt t * rs / rd /\ 0 < rd /\
  out * rd <= tx_amt t * rs < (out + 1) * rd /\
  0 <= out <= max_int64 /\ 0 <= tx_amt t.

Lemma conv_of_floor h rates avgs t out :
  0 <= rate_of rates (tx_type t) -> 0 <= rate_of avgs (tx_type t) ->
  0 <= rate_of rates (tx_conv t) -> 0 <= rate_of avgs (tx_conv t) ->
  conv_of c h rates avgs t = Some out -> conv_floor_spec h rates avgs t out.
Proof.
  intros R1 R2 R3 R4 H. unfold conv_of, convert_h in H. unfold conv_floor_spec. cbv zeta.
  pose proof (convert_floor _ _ _ _ _ _ _ R1 R2 R3 R4 H) as F. cbv zeta in F.
  pose proof (convert_range _ _ _ _ _ _ _ R1 R2 R3 R4 H) as G.
  destruct (convert_some_inv _ _ _ _ _ _ _ R1 R2 R3 R4 H) as [(Ha & Hf & Ht & Hp & Hq) E].
  split; [exact E|]. split; [|auto].
  unfold rate_dst. destruct (c_PIP10AverageActivation c <=? h); lia.
Qed.

(* the state recordBatch leaves for the one-conversion batch *)
Definition conv_result (h : Z) (s : db) (hs : hash) (t : tx) (out : Z) : db :=
  let s1 := set_bal s (<[(tx_addr t, tx_type t) := get_bal (bal s) (tx_addr t) (tx_type t) - tx_amt t]> (bal s)) in
  let s4 := set_to_amount (set_executed (insert_relation s1 (tx_addr t) hs 0 false true) hs h) hs 0 out in
  set_bal s4 (<[(tx_addr t, tx_conv t) := get_bal (bal s4) (tx_addr t) (tx_conv t) + out]> (bal s4)).

Lemma conv_result_bal h s hs t out a ty :
  get_bal (bal (conv_result h s hs t out)) a ty =
    get_bal (bal s) a ty
    - (if (a =? tx_addr t) && (ty =? tx_type t) then tx_amt t else 0)
    + (if (a =? tx_addr t) && (ty =? tx_conv t) then out else 0).
Proof.
  unfold conv_result. cbv zeta. cbn [bal set_bal]. rewrite bal_set_to_amount, bal_set_executed, bal_insert_relation.
  destruct t as [ad tt am tr cv]. cbn [bal set_bal tx_addr tx_type tx_amt tx_conv].
  rewrite !get_bal_insert_eqb, Z.eqb_refl, (Z.eqb_sym a), (Z.eqb_sym ty tt), (Z.eqb_sym ty cv). cbn [andb].
  unfold ticker, addr in *.
  destruct (Z.eqb_spec ad a) as [->|]; cbn [andb]; [|lia].
  destruct (Z.eqb_spec tt cv), (Z.eqb_spec cv ty), (Z.eqb_spec tt ty); subst; lia || congruence.
Qed.

Lemma conv_result_tables h s hs t out :
  hist (conv_result h s hs t out) = mark_exec hs h (hist s) /\
  htxs (conv_result h s hs t out) = htxs (set_to_amount s hs 0 out) /\
  rates (conv_result h s hs t out) = rates s /\
  holding (conv_result h s hs t out) = holding s /\
  is_replay (conv_result h s hs t out) hs = true /\
  bank (conv_result h s hs t out) = bank s.
Proof.
  unfold conv_result. cbv zeta. set (s1 := set_bal s _).
  pose proof (insert_relation_replay s1 (tx_addr t) hs 0 false true) as R.
  rewrite (insert_relation_set_rel s1) in *. repeat split; try reflexivity. exact R.
Qed.

Lemma record_single_conversion h s hs rates avgs t out s' :
  is_conversion t = true ->
  (c_PegnetConversionLimitActivation c <=? h) && is_peg_request t = false ->
  0 <= tx_amt t <= get_bal (bal s) (tx_addr t) (tx_type t) ->
  conv_of c h rates avgs t = Some out -> 0 <= out <= max_int64 ->
  record_batch c h hs rates avgs [t] s = Ok s' <-> conv_room s t out /\ s' = conv_result h s hs t out.
Proof.
  intros Hc Hnd Hf Hconv Ho. unfold record_batch, conv_room, conv_result. cbn [record_txs]. cbv zeta.
  rewrite Hnd, Hc, Hconv, (wrap64_small out) by (unfold max_int64, two64 in *; lia).
  (* the credited cell, after the debit *)
  assert (B : forall s1 : db, bal s1 = <[(tx_addr t, tx_type t) := get_bal (bal s) (tx_addr t) (tx_type t) - tx_amt t]> (bal s) ->
            get_bal (bal (set_to_amount (set_executed (insert_relation s1 (tx_addr t) hs 0 false true) hs h) hs 0 out)) (tx_addr t) (tx_conv t)
            = get_bal (bal s) (tx_addr t) (tx_conv t) - (if tx_conv t =? tx_type t then tx_amt t else 0)).
  { intros s1 E. rewrite bal_set_to_amount, bal_set_executed, bal_insert_relation, E, get_bal_insert_eqb, Z.eqb_refl, Z.eqb_sym.
    cbn [andb]. destruct (Z.eqb_spec (tx_conv t) (tx_type t)) as [->|]; lia. }
  split.
  - destruct (sub_from_balance s _ _ _) as [s1| |] eqn:Es; try discriminate.
    apply sub_from_balance_iff in Es as (Rv & Rlt & _ & Rz & ->). intros H.
    apply rbind_ok in H as (s5 & Hadd & E). inversion E; subst s5.
    apply add_to_balance_iff in Hadd as (_ & _ & Rc & ->). rewrite B in Rc by reflexivity. auto 6.
  - intros ((Rv & Rlt & Rz & Rc) & ->).
    rewrite (proj2 (sub_from_balance_iff s _ _ _ _) (conj Rv (conj Rlt (conj (fun _ => proj2 Hf) (conj Rz eq_refl))))).
    erewrite (proj2 (add_to_balance_iff _ _ _ _ _)); [reflexivity|].
    split; [exact (is_conversion_valid_conv _ Hc)|]. split; [unfold two63, max_int64 in *; lia|].
    split; [rewrite B by reflexivity; exact Rc|reflexivity].
Qed.

Lemma apply_single_conversion h s hs rates avgs t out s' :
  is_conversion t = true ->
  (c_PegnetConversionLimitActivation c <=? h) && is_peg_request t = false ->
  check_txs c h s rates avgs [t] = None ->
  conv_of c h rates avgs t = Some out ->
  0 <= rate_of rates (tx_type t) -> 0 <= rate_of avgs (tx_type t) ->
  0 <= rate_of rates (tx_conv t) -> 0 <= rate_of avgs (tx_conv t) ->
  conv_floor_spec h rates avgs t out /\
  (apply_batch c h s hs [t] rates avgs = BApplied s' <-> conv_room s t out /\ s' = conv_result h s hs t out).
Proof.
  intros Hc Hnd Hchk Hconv R1 R2 R3 R4.
  pose proof (conv_of_floor _ _ _ _ _ R1 R2 R3 R4 Hconv) as F. split; [exact F|].
  pose proof (check_single_funded _ _ _ _ _ Hc Hchk) as Hf.
  assert (Ho : 0 <= out <= max_int64 /\ 0 <= tx_amt t) by (unfold conv_floor_spec in F; cbv zeta in F; tauto).
  rewrite (accepted_conversion_is_recorded c h s hs rates avgs t Hc Hchk).
  rewrite <- (record_single_conversion h s hs rates avgs t out s' Hc Hnd ltac:(lia) Hconv ltac:(tauto)).
  destruct (record_batch c h hs rates avgs [t] s); split; intros E; inversion E; reflexivity.
Qed.

Theorem single_conversion_executes_exactly h s hs rates avgs t out :
  is_conversion t = true ->
  (c_PegnetConversionLimitActivation c <=? h) && is_peg_request t = false ->   (* not deferred to the PEG bank *)
  check_txs c h s rates avgs [t] = None ->                                       (* the admission rule lets it through *)
  conv_of c h rates avgs t = Some out ->
  (* the two rates and two averages used are uint64 values *)
  0 <= rate_of rates (tx_type t) -> 0 <= rate_of avgs (tx_type t) ->
  0 <= rate_of rates (tx_conv t) -> 0 <= rate_of avgs (tx_conv t) ->
  conv_room s t out ->
  exists s',
    apply_batch c h s hs [t] rates avgs = BApplied s' /\
    (* exactly one debit, exactly one credit, nobody else's balance changes *)
    (forall a ty, get_bal (bal s') a ty =
        get_bal (bal s) a ty
        - (if (a =? tx_addr t) && (ty =? tx_type t) then tx_amt t else 0)
        + (if (a =? tx_addr t) && (ty =? tx_conv t) then out else 0)) /\
    (* the credited amount is the floor, at the rates / averages of the arguments *)
    conv_floor_spec h rates avgs t out /\
    (* status, recorded amount, replay protection; pn_rate and the holding table untouched *)
    hist s' = mark_exec hs h (hist s) /\
    htxs s' = htxs (set_to_amount s hs 0 out) /\
    Db.rates s' = Db.rates s /\ holding s' = holding s /\ is_replay s' hs = true /\ bank s' = bank s.
Proof.
  intros Hc Hnd Hchk Hconv R1 R2 R3 R4 Hroom. exists (conv_result h s hs t out).
  destruct (apply_single_conversion h s hs rates avgs t out (conv_result h s hs t out) Hc Hnd Hchk Hconv R1 R2 R3 R4) as [F A].
  split; [apply A; auto|]. split; [intros a ty; apply conv_result_bal|]. split; [exact F|].
  destruct (conv_result_tables h s hs t out) as (T1 & T2 & T3 & T4 & T5 & T6). auto 10.
Qed.

(* the room conditions are not only sufficient: a let-through conversion is applied ONLY IF they hold
   (so [conv_room] is the weakest side condition) *)
Theorem single_conversion_room_necessary h s hs rates avgs t out s' :
  is_conversion t = true ->
  (c_PegnetConversionLimitActivation c <=? h) && is_peg_request t = false ->
  check_txs c h s rates avgs [t] = None ->
  conv_of c h rates avgs t = Some out ->
  0 <= rate_of rates (tx_type t) -> 0 <= rate_of avgs (tx_type t) ->
  0 <= rate_of rates (tx_conv t) -> 0 <= rate_of avgs (tx_conv t) ->
  apply_batch c h s hs [t] rates avgs = BApplied s' ->
  conv_room s t out.
Proof.
  intros Hc Hnd Hchk Hconv R1 R2 R3 R4 H.
  apply (apply_single_conversion h s hs rates avgs t out s' Hc Hnd Hchk Hconv R1 R2 R3 R4) in H. apply H.
Qed.

Lemma entry_valid_single_bound e hh t : entry_valid_at c e hh = Some [t] -> 0 <= tx_amt t <= max_int64.
Proof.
  intros H. apply entry_valid_at_okb in H. cbn [forallb] in H. apply andb_prop in H as [H _].
  exact (tx_amounts_okb_bound t H).
Qed.

Theorem held_conversion_executes_exactly cur rates avgs s e hh t out :
  entry_valid_at c e hh = Some [t] ->                               (* the held batch is the single transaction t *)
  (exists txs, entry_valid_at c e cur = Some txs) ->                (* still valid at the executing height *)
  is_replay s (e_hash e) = false ->                                 (* not a replay *)
  (c_V20HeightActivation c <=? cur) && has_peg_conversion [t] = false ->   (* no conversion into PEG from 2.0 on *)
  is_conversion t = true ->
  (c_PegnetConversionLimitActivation c <=? cur) && is_peg_request t = false ->
  check_txs c cur s rates avgs [t] = None ->
  conv_of c cur rates avgs t = Some out ->
  0 <= rate_of rates (tx_type t) -> 0 <= rate_of avgs (tx_type t) ->
  0 <= rate_of rates (tx_conv t) -> 0 <= rate_of avgs (tx_conv t) ->
  (* room: [tx_amt t < 2^63] comes from the validity of the entry *)
  valid_ticker (tx_type t) = true ->
  (tx_amt t = 0 -> get_bal (bal s) (tx_addr t) (tx_type t) <= max_int64) ->
  get_bal (bal s) (tx_addr t) (tx_conv t) - (if tx_conv t =? tx_type t then tx_amt t else 0) + out <= max_int64 ->
  exists s',
    apply_held c cur rates avgs s e hh = Ok (s', false) /\
    (forall a ty, get_bal (bal s') a ty =
        get_bal (bal s) a ty
        - (if (a =? tx_addr t) && (ty =? tx_type t) then tx_amt t else 0)
        + (if (a =? tx_addr t) && (ty =? tx_conv t) then out else 0)) /\
    conv_floor_spec cur rates avgs t out /\
    (* every batch row of the entry says "executed at cur" *)
    hist s' = mark_exec (e_hash e) cur (hist s) /\
    Forall (fun x => x = cur) (status_of s' (e_hash e)) /\
    (* the transaction row (entry hash, index 0) carries the converted amount *)
    htxs s' = htxs (set_to_amount s (e_hash e) 0 out) /\
    (forall r, In r (htxs s') -> ht_hash r = e_hash e -> ht_index r = 0 -> ht_to_amount r = out) /\
    Db.rates s' = Db.rates s /\ holding s' = holding s /\ is_replay s' (e_hash e) = true /\ bank s' = bank s.
Proof.
  intros Hv [txs Hcur] Hrep Hpeg Hc Hnd Hchk Hconv R1 R2 R3 R4 Rv Rz Rc.
  pose proof (entry_valid_single_bound _ _ _ Hv) as Hb.
  assert (Hroom : conv_room s t out).
  { unfold conv_room. repeat split; auto. clear -Hb. unfold two63, max_int64 in *. lia. }
  destruct (single_conversion_executes_exactly cur s (e_hash e) rates avgs t out Hc Hnd Hchk Hconv R1 R2 R3 R4 Hroom)
    as (s' & Hap & Hbal & Hfl & Hh & Hx & Hr & Hho & Hrp & Hbk).
  exists s'. split.
  { unfold apply_held. rewrite Hv, Hpeg, Hcur, Hrep, Hap. f_equal. f_equal.
    unfold has_peg_request. cbn [existsb]. rewrite orb_false_r.
    destruct (cur <? c_V20HeightActivation c); cbn [andb]; [exact Hnd|reflexivity]. }
  split; [exact Hbal|]. split; [exact Hfl|]. split; [exact Hh|].
  split.
  { unfold status_of. rewrite Hh, status_mark_exec. apply Forall_forall. intros x Hx'.
    apply in_map_iff in Hx' as (? & <- & _). reflexivity. }
  split; [exact Hx|]. split; [|auto].
  intros r Hin Hhash Hidx. rewrite Hx in Hin. unfold set_to_amount, upd_htx in Hin. cbn [htxs set_htxs] in Hin.
  apply in_map_iff in Hin as (r0 & <- & _).
  destruct ((ht_hash r0 =? e_hash e) && (ht_index r0 =? 0)) eqn:E; [reflexivity|].
  clear -E Hhash Hidx. lia.
Qed.


Lemma holding_at_single cm e g hh :
  holding cm = [{| h_entry := e; h_height := g |}] -> holding_at cm hh = if g =? hh then [e] else [].
Proof. intros H. unfold holding_at. rewrite H. cbn [filter h_height]. destruct (g =? hh); reflexivity. Qed.

Lemma apply_held_height_empty cm cur rates avgs hh s0 :
  holding_at cm hh = [] ->
  apply_held_height c cm cur rates avgs hh (Ok (s0, [])) = Ok (s0, []).
Proof. intros He. unfold apply_held_height. cbn [rbind]. rewrite He. cbn [fold_left rbind]. apply early_bank_step_nil. Qed.

Lemma apply_held_height_single cm cur rates avgs hh s0 e s1 :
  holding_at cm hh = [e] ->
  apply_held c cur rates avgs s0 e hh = Ok (s1, false) ->
  apply_held_height c cm cur rates avgs hh (Ok (s0, [])) = Ok (s1, []).
Proof.
  intros He Ha. unfold apply_held_height. cbn [rbind]. rewrite He. cbn [fold_left rbind]. rewrite Ha. cbn [rbind].
  apply early_bank_step_nil.
Qed.

Lemma held_fold_nil cm cur rates avgs s0 l :
  (forall hh, In hh l -> holding_at cm hh = []) ->
  fold_left (fun acc hh => apply_held_height c cm cur rates avgs hh acc) l (Ok (s0, [])) = Ok (s0, []).
Proof.
  induction l as [|hh l IH]; intros Hl; cbn [fold_left]; [reflexivity|].
  rewrite apply_held_height_empty by (apply Hl; left; reflexivity). apply IH. intros; apply Hl; right; assumption.
Qed.

(* The holding pass of a rated block [cur] over a holding table that contains one batch — the single
   conversion [t], held at a height [g] of the window (no rated height in between): the pass succeeds and
   its whole effect on the balances is that conversion, at the rates / averages the pass was given. *)
Theorem apply_holding_single_conversion cm cur s rates avgs e g t out :
  holding cm = [{| h_entry := e; h_height := g |}] ->
  last_rated_below s cur <= g < cur ->
  (* in the V4 bank era the block's bank row exists (SyncBank ran) *)
  ((c_V4OPRUpdate c <=? cur) && (cur <? c_V20HeightActivation c) = true -> exists row, bank s !! cur = Some row) ->
  entry_valid_at c e g = Some [t] ->
  (exists txs, entry_valid_at c e cur = Some txs) ->
  is_replay s (e_hash e) = false ->
  (c_V20HeightActivation c <=? cur) && has_peg_conversion [t] = false ->
  is_conversion t = true ->
  (c_PegnetConversionLimitActivation c <=? cur) && is_peg_request t = false ->
  check_txs c cur s rates avgs [t] = None ->
  conv_of c cur rates avgs t = Some out ->
  0 <= rate_of rates (tx_type t) -> 0 <= rate_of avgs (tx_type t) ->
  0 <= rate_of rates (tx_conv t) -> 0 <= rate_of avgs (tx_conv t) ->
  valid_ticker (tx_type t) = true ->
  (tx_amt t = 0 -> get_bal (bal s) (tx_addr t) (tx_type t) <= max_int64) ->
  get_bal (bal s) (tx_addr t) (tx_conv t) - (if tx_conv t =? tx_type t then tx_amt t else 0) + out <= max_int64 ->
  exists s2,
    apply_holding c cm cur s rates avgs = Ok s2 /\
    (forall a ty, get_bal (bal s2) a ty =
        get_bal (bal s) a ty
        - (if (a =? tx_addr t) && (ty =? tx_type t) then tx_amt t else 0)
        + (if (a =? tx_addr t) && (ty =? tx_conv t) then out else 0)) /\
    conv_floor_spec cur rates avgs t out /\
    hist s2 = mark_exec (e_hash e) cur (hist s) /\
    Forall (fun x => x = cur) (status_of s2 (e_hash e)) /\
    htxs s2 = htxs (set_to_amount s (e_hash e) 0 out) /\
    is_replay s2 (e_hash e) = true.
Proof.
  intros Hh Hwin Hbank Hv Hcur Hrep Hpeg Hc Hnd Hchk Hconv R1 R2 R3 R4 Rv Rz Rc.
  destruct (held_conversion_executes_exactly cur rates avgs s e g t out Hv Hcur Hrep Hpeg Hc Hnd Hchk Hconv R1 R2 R3 R4 Rv Rz Rc)
    as (s1 & Hap & Hbal & Hfl & Hhist & Hst & Hx & Hto & Hr & Hho & Hrp & Hbk).
  unfold apply_holding. cbv zeta.
  (* the window, cut at the one height where something is held *)
  assert (He : forall hh, hh <> g -> holding_at cm hh = []).
  { intros hh Hne. rewrite (holding_at_single _ _ _ _ Hh). destruct (Z.eqb_spec g hh); [congruence|reflexivity]. }
  rewrite (zrange_split _ _ g) by (clear -Hwin; lia).
  rewrite fold_left_app, held_fold_nil by (intros hh Hin; apply in_zrange_iff in Hin; apply He; clear -Hin; lia).
  cbn [fold_left]. rewrite (apply_held_height_single cm cur rates avgs g s e s1);
    [|rewrite (holding_at_single _ _ _ _ Hh), Z.eqb_refl; reflexivity|exact Hap].
  rewrite held_fold_nil by (intros hh Hin; apply in_zrange_iff in Hin; apply He; clear -Hin; lia).
  cbn [rbind].
  destruct ((c_V4OPRUpdate c <=? cur) && (cur <? c_V20HeightActivation c)) eqn:Era.
  - destruct (Hbank eq_refl) as ([[amount used] req] & Hrow). rewrite Hbk, Hrow. rewrite record_peg_requests_nil.
    apply andb_prop in Era as [Era _]. rewrite Era.
    unfold update_bank. rewrite Hbk, Hrow. eexists. split; [reflexivity|].
    cbn [bal hist htxs set_bank]. split; [exact Hbal|]. split; [exact Hfl|]. split; [exact Hhist|].
    split; [exact Hst|]. split; [exact Hx|exact Hrp].
  - exists s1. split; [reflexivity|]. auto 10.
Qed.

(* "this block records rates", read off the grading verdicts:
   before 2.0 — the OPR verdict has a winner;
   from 2.0 on — at least one of the two verdicts offers assets and the band selection succeeds. *)
Definition block_rated (cm : db) (b : block) : Prop :=
  if b_height b <? c_V20HeightActivation c then
    exists v, grade_opr c cm b = Done (Some v) /\ v_winners v <> []
  else
    exists g gS l, grade_opr c cm b = Done g /\ grade_spr c cm b = Done gS /\
      (first_assets g <> [] \/ first_assets gS <> []) /\
      select_rates c (b_height b) (first_assets g) (first_assets gS) = RSel l.

Lemma block_rated_choice cm b g gS :
  grade_opr c cm b = Done g -> spr_verdict c cm b = Done gS ->
  block_rated cm b <-> rate_choice c (b_height b) g gS <> None.
Proof.
  intros Hg HgS. unfold block_rated, rate_choice, spr_verdict in *.
  destruct (Z.ltb_spec (b_height b) (c_V20HeightActivation c)) as [Hlt|Hge].
  - rewrite Hg. split.
    + intros (v & Hv & Hw). inversion Hv; subst. destruct (v_winners v); [congruence|discriminate].
    + destruct g as [v|]; [|congruence]. intros Hw. exists v. split; [reflexivity|]. destruct (v_winners v); congruence.
  - destruct (Z.leb_spec (c_V20HeightActivation c) (b_height b)); [|lia]. rewrite Hg, HgS. split.
    + intros (g' & gS' & l & Hg' & HgS' & Hne & Hsel). inversion Hg'; inversion HgS'; subst. revert Hne Hsel.
      destruct (first_assets g'), (first_assets gS'); intros Hne Hsel; [destruct Hne; congruence|rewrite Hsel; discriminate..].
    + intros Hc. exists g, gS. revert Hc.
      destruct (first_assets g), (first_assets gS); [congruence|..];
        (destruct (select_rates c _ _ _) as [sel|]; [intros _|congruence]; exists sel; repeat split;
         (left; discriminate) || (right; discriminate)).
Qed.

(* For a block at or above the activation of conversions that ends successfully, either it is not a
   rated block and pn_rate is untouched, or it is, and then: the height was unrated, one map [m] is
   inserted for it (never empty), the holding pass runs exactly once, on a state [s1] whose pn_rate is
   the old one plus [m], with rates = [m] — the snapshot fall-back to the previous rated height is dead
   code here because [m] is never empty — and with the averages of the last rated height BEFORE the
   block; nothing after it touches pn_rate. *)
Theorem sync_block_rated_dichotomy cm mem b s s' mem' :
  sync_block c cm mem b s = Done (s', mem') ->
  c_TransactionConversionActivation c <= b_height b ->
  (~ block_rated cm b /\ Db.rates s' = Db.rates s)
  \/
  (block_rated cm b /\ Db.rates s !! b_height b = None /\
   exists m s1 s2,
     is_empty_map m = false /\
     Db.rates s1 = <[b_height b := m]> (Db.rates s) /\
     apply_holding c cm (b_height b) s1 m
        (fst (get_averages cm (c_AveragePeriod c) mem (last_rated_below s1 (b_height b)))) = Ok s2 /\
     mem' = snd (get_averages cm (c_AveragePeriod c) mem (last_rated_below s1 (b_height b))) /\
     last_rated_below s1 (b_height b) = last_rated_below s (b_height b) /\
     Db.rates s2 = Db.rates s1 /\ Db.rates s' = Db.rates s1).
Proof.
  intros H Htca. pose proof H as H0.
  apply sync_block_choice_inv in H as (g & gS & s2 & s3 & Hg & HgS & H2 & H3 & H).
  pose proof (block_rated_choice cm b g gS Hg HgS) as BR.
  destruct (rate_choice c (b_height b) g gS) as [[l ph]|] eqn:Ec.
  2:{ left. split; [intros B; apply BR in B; congruence|].
      apply (sync_block_no_choice_no_rates c _ _ _ _ _ _ H0). intros g' gS' Hg' HgS'. congruence. }
  right. split; [apply BR; discriminate|]. destruct H as (s4 & s5 & Hi & Htx & Hpay).
  pose proof (before_rate_rows_rates c _ _ _ _ _ _ H2 H3) as E3. rewrite E3.
  apply insert_rates_shape in Hi as (Hn & m & -> & Hm). split; [exact Hn|].
  apply (tx_phase_inv c) in Htx as [(Hlt & _)|(sa & r & sc & Hs & Hh & Hes)]; [lia|].
  assert (r = m) by exact (snapshot_phase_own_rates c _ _ _ _ _ _ Hs (lookup_insert _ _ _) Hm). subst r.
  apply holding_phase_rated in Hh as (s1 & Hb & Hap & Hmem).
  assert (E1 : Db.rates s1 = <[b_height b := m]> (Db.rates s3)).
  { transitivity (Db.rates sa); symmetry; [|exact (lwrites_rates True _ _ _ _ (snapshot_phase_writes c _ _ _ _ _ _ Hs))].
    destruct (_ && _); [|inversion Hb; reflexivity]. apply insert_bank_ok in Hb as (_ & ->). reflexivity. }
  assert (E2 : Db.rates s1 = Db.rates sc) by exact (lwrites_rates True _ _ _ _ (apply_holding_writes c _ _ _ _ _ _ Hap)).
  exists m, s1, sc. split; [exact Hm|]. split; [exact E1|]. split; [exact Hap|]. split; [exact Hmem|].
  split; [|split; [symmetry; exact E2|]].
  - apply last_rated_below_agree_rated. intros k Hk. rewrite E1, E3, lookup_insert_ne by lia. reflexivity.
  - rewrite E2. symmetry. transitivity (Db.rates s5); [|exact (lwrites_rates True _ _ _ _ (payout_phase_writes c _ _ _ _ _ _ Hpay))].
    destruct (b_tx b); [|inversion Hes; reflexivity]. exact (lwrites_rates True _ _ _ _ (apply_tx_block_writes c _ _ _ _ Hes)).
Qed.

(* The same seen from outside: the height was unrated before the block and carries the map [m]
   afterwards.  Then [m] is what the holding pass was given. *)
Theorem sync_block_holding_uses_own_rates cm mem b s s' mem' m :
  sync_block c cm mem b s = Done (s', mem') ->
  c_TransactionConversionActivation c <= b_height b ->
  Db.rates s !! b_height b = None -> Db.rates s' !! b_height b = Some m ->
  block_rated cm b /\ is_empty_map m = false /\
  exists s1 s2,
    let h := b_height b in
    let avgs := fst (get_averages cm (c_AveragePeriod c) mem (last_rated_below s1 h)) in
    Db.rates s1 !! h = Some m /\                                   (* the map this block inserted ... *)
    Db.rates s1 = <[h := m]> (Db.rates s) /\
    apply_holding c cm h s1 m avgs = Ok s2 /\                      (* ... is the [rates] argument of the holding pass *)
    last_rated_below s1 h = last_rated_below s h /\                (* averages: of the last rated height before the block *)
    mem' = snd (get_averages cm (c_AveragePeriod c) mem (last_rated_below s1 h)) /\
    Db.rates s2 = Db.rates s1 /\ Db.rates s' = Db.rates s1.       (* recorded rates survive to the end of the block *)
Proof.
  intros H Htca Hn Hs'.
  destruct (sync_block_rated_dichotomy _ _ _ _ _ _ H Htca) as [(_ & E)|(BR & _ & m0 & s1 & s2 & Hm & E1 & Hap & Hmem & Hl & E2 & E3)].
  - rewrite E in Hs'. discriminate (eq_trans (eq_sym Hs') Hn).
  - assert (m0 = m).
    { rewrite E3, E1, lookup_insert in Hs'. inversion Hs'; reflexivity. }
    subst m0. split; [exact BR|]. split; [exact Hm|]. exists s1, s2. cbv zeta.
    split; [rewrite E1; apply lookup_insert|]. auto 10.
Qed.

(* the same from the verdicts: a rated block does record a map for its height and runs the holding pass on it *)
Theorem sync_block_rated_runs_holding cm mem b s s' mem' :
  sync_block c cm mem b s = Done (s', mem') ->
  c_TransactionConversionActivation c <= b_height b ->
  block_rated cm b ->
  Db.rates s !! b_height b = None /\
  exists m s1 s2,
    Db.rates s' !! b_height b = Some m /\ is_empty_map m = false /\
    Db.rates s1 = <[b_height b := m]> (Db.rates s) /\
    apply_holding c cm (b_height b) s1 m
       (fst (get_averages cm (c_AveragePeriod c) mem (last_rated_below s (b_height b)))) = Ok s2 /\
    Db.rates s' = Db.rates s1.
Proof.
  intros H Htca BR.
  destruct (sync_block_rated_dichotomy _ _ _ _ _ _ H Htca) as [(NB & _)|(_ & Hn & m & s1 & s2 & Hm & E1 & Hap & Hmem & Hl & E2 & E3)].
  - contradiction.
  - split; [exact Hn|]. exists m, s1, s2. split; [rewrite E3, E1; apply lookup_insert|].
    split; [exact Hm|]. split; [exact E1|]. split; [rewrite <- Hl; exact Hap|exact E3].
Qed.

(* ... and an unrated block leaves pn_rate as it was (Lemmas/NoWinners.v gives the status side) *)
Corollary sync_block_unrated_no_rates cm mem b s s' mem' :
  sync_block c cm mem b s = Done (s', mem') ->
  c_TransactionConversionActivation c <= b_height b ->
  ~ block_rated cm b -> Db.rates s' = Db.rates s.
Proof.
  intros H _ NB. apply (sync_block_no_choice_no_rates c _ _ _ _ _ _ H). intros g gS Hg HgS.
  destruct (rate_choice c (b_height b) g gS) eqn:E; [|reflexivity].
  exfalso. apply NB, (block_rated_choice cm b g gS Hg HgS). rewrite E. discriminate.
Qed.

End WithCfg.

Print Assumptions single_conversion_executes_exactly.
Print Assumptions single_conversion_room_necessary.
Print Assumptions held_conversion_executes_exactly.
Print Assumptions apply_holding_single_conversion.
Print Assumptions sync_block_rated_dichotomy.
Print Assumptions sync_block_holding_uses_own_rates.
Print Assumptions sync_block_rated_runs_holding.

(* alice holds 100 pUSD and converts 10 pUSD into pFCT at height 99 of the example schedule
   (pUSD = 1e8, pFCT = 4e8): every hypothesis of the theorem holds, with out = floor(10 x 1e8 / 4e8) = 2 *)
Definition ex1_t : tx := {| tx_addr := alice; tx_type := PTickerUSD; tx_amt := 10; tx_transfers := []; tx_conv := PTickerFCT |}.
Definition ex1_s : db := set_bal empty_db {[ (alice, PTickerUSD) := 100 ]}.
Definition ex1_rates : gmap ticker Z := {[ PTickerUSD := 100000000; PTickerFCT := 400000000 ]}.

Example single_conversion_hyps_satisfiable :
  is_conversion ex1_t = true /\
  (c_PegnetConversionLimitActivation ex_cfg <=? 99) && is_peg_request ex1_t = false /\
  check_txs ex_cfg 99 ex1_s ex1_rates ex1_rates [ex1_t] = None /\
  conv_of ex_cfg 99 ex1_rates ex1_rates ex1_t = Some 2 /\
  0 <= rate_of ex1_rates (tx_type ex1_t) /\ 0 <= rate_of ex1_rates (tx_conv ex1_t) /\
  conv_room ex1_s ex1_t 2.
Proof.
  unfold conv_room.
  repeat split; try (vm_compute; reflexivity); try (vm_compute; discriminate).
Qed.

(* ... and the theorem applied to it: 10 pUSD leave, 2 pFCT arrive, bob is not concerned *)
Example single_conversion_example :
  exists s', apply_batch ex_cfg 99 ex1_s 777 [ex1_t] ex1_rates ex1_rates = BApplied s' /\
             get_bal (bal s') alice PTickerUSD = 90 /\ get_bal (bal s') alice PTickerFCT = 2 /\
             get_bal (bal s') bob PTickerUSD = 0 /\ is_replay s' 777 = true.
Proof.
  destruct single_conversion_hyps_satisfiable as (H1 & H2 & H3 & H4 & H5 & H6 & H7).
  destruct (single_conversion_executes_exactly ex_cfg 99 ex1_s 777 ex1_rates ex1_rates ex1_t 2 H1 H2 H3 H4 H5 H5 H6 H6 H7)
    as (s' & Hap & Hbal & _ & _ & _ & _ & _ & Hrep & _).
  exists s'. split; [exact Hap|]. rewrite !Hbal. repeat split; try (vm_compute; reflexivity). exact Hrep.
Qed.

(* the held conversion of the example chain (entry 602: alice converts 20 pFCT into pUSD, held at 102)
   looked at by a block at height 104 with pFCT = 4e8, pUSD = 1e8: 80 pUSD *)
Definition ex2_s : db := set_bal empty_db {[ (alice, PTickerFCT) := 70 ]}.
Definition ex2_t : tx := {| tx_addr := alice; tx_type := PTickerFCT; tx_amt := 20; tx_transfers := []; tx_conv := PTickerUSD |}.
Example held_conversion_hyps_satisfiable :
  entry_valid_at ex_cfg (ex_conversion 602 20) 102 = Some [ex2_t] /\
  entry_valid_at ex_cfg (ex_conversion 602 20) 104 = Some [ex2_t] /\
  is_replay ex2_s 602 = false /\
  (c_V20HeightActivation ex_cfg <=? 104) && has_peg_conversion [ex2_t] = false /\
  is_conversion ex2_t = true /\
  (c_PegnetConversionLimitActivation ex_cfg <=? 104) && is_peg_request ex2_t = false /\
  check_txs ex_cfg 104 ex2_s ex1_rates ex1_rates [ex2_t] = None /\
  conv_of ex_cfg 104 ex1_rates ex1_rates ex2_t = Some 80 /\
  0 <= rate_of ex1_rates (tx_type ex2_t) /\ 0 <= rate_of ex1_rates (tx_conv ex2_t) /\
  valid_ticker (tx_type ex2_t) = true /\
  (tx_amt ex2_t = 0 -> get_bal (bal ex2_s) (tx_addr ex2_t) (tx_type ex2_t) <= max_int64) /\
  get_bal (bal ex2_s) (tx_addr ex2_t) (tx_conv ex2_t) - (if tx_conv ex2_t =? tx_type ex2_t then tx_amt ex2_t else 0) + 80 <= max_int64.
Proof.
  repeat split; try (vm_compute; reflexivity); try (vm_compute; discriminate).
Qed.

Example held_conversion_example :
  exists s', apply_held ex_cfg 104 ex1_rates ex1_rates ex2_s (ex_conversion 602 20) 102 = Ok (s', false) /\
             get_bal (bal s') alice PTickerFCT = 50 /\ get_bal (bal s') alice PTickerUSD = 80 /\
             Forall (fun x => x = 104) (status_of s' 602).
Proof.
  destruct held_conversion_hyps_satisfiable as (H1 & H2 & H3 & H4 & H5 & H6 & H7 & H8 & H9 & H10 & H11 & H12 & H13).
  destruct (held_conversion_executes_exactly ex_cfg 104 ex1_rates ex1_rates ex2_s (ex_conversion 602 20) 102 ex2_t 80
              H1 (ex_intro _ _ H2) H3 H4 H5 H6 H7 H8 H9 H9 H10 H10 H11 H12 H13)
    as (s' & Hap & Hbal & _ & _ & Hst & _).
  exists s'. split; [exact Hap|]. rewrite !Hbal. repeat split; try (vm_compute; reflexivity). exact Hst.
Qed.

(* block 104 of the example chain is a rated block: its height is unrated before, rated after, and the
   theorem's hypotheses hold for it *)
Example sync_block_rated_example :
  match replay ex_cfg genesis empty_cache (firstn 3 ex_chain) with
  | Done (s3, m3) =>
    let b := nth 3 ex_chain (ex_block 0 None None []) in
    (c_TransactionConversionActivation ex_cfg <=? b_height b) = true /\
    Db.rates s3 !! b_height b = None /\
    match sync_block ex_cfg s3 m3 b s3 with
    | Done (s4, _) => match Db.rates s4 !! b_height b with Some m => rate_of m PTickerFCT = 400000000 | None => False end
    | _ => False
    end
  | _ => False
  end.
Proof. vm_compute. repeat split; reflexivity. Qed.
