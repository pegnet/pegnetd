(* Lemmas/RoundTripScan.v — replaying the number scanner: whatever scan_number cut off the front of
   an input is cut off again, unchanged, from the front of any other input in which it is followed
   by a byte that cannot continue a number.  (Strings: [str_body] in Lemmas/JsonLemmas.v.) *)
From Coq Require Import ZArith List Bool Lia.
From Model Require Import Json.
From Lemmas Require Import JsonLemmas.
Import ListNotations.
Open Scope list_scope.
Open Scope Z_scope.

(* the three conjuncts of [stop] (below): what follows is no digit, no dot, no exponent mark.
   Each part of the scanner needs only its own. *)
Definition nd (rest : bytes) : bool := match rest with [] => true | c :: _ => negb (is_digit c) end.
Definition nodot (rest : bytes) : bool := match rest with [] => true | c :: _ => negb (c =? 46) end.
Definition noexp (rest : bytes) : bool :=
  match rest with [] => true | c :: _ => negb ((c =? 101) || (c =? 69)) end.

Lemma span_digits_nd d : all_digits d = true -> forall rest, nd rest = true ->
  span_digits (d ++ rest) = (d, rest).
Proof.
  induction d as [|c d IH]; intros D rest S.
  - cbn [app]. destruct rest as [|x r]; [reflexivity|]. cbn [span_digits]. cbn [nd] in S.
    destruct (is_digit x); [discriminate|reflexivity].
  - apply all_digits_cons in D as [Dc Dd]. cbn [app span_digits]. rewrite Dc, (IH Dd rest S). reflexivity.
Qed.

Lemma span_digits_split s : forall d rest, span_digits s = (d, rest) -> s = d ++ rest /\ all_digits d = true.
Proof.
  induction s as [|c r IH]; intros d rest; cbn [span_digits]; [intros [= <- <-]; split; reflexivity|].
  destruct (is_digit c) eqn:D; [|intros [= <- <-]; split; reflexivity].
  destruct (span_digits r) as [d' rest'] eqn:S. intros [= <- <-].
  destruct (IH d' rest' eq_refl) as [E A]. split; [cbn [app]; rewrite E at 1; reflexivity|].
  apply all_digits_cons. split; assumption.
Qed.

Definition int_shape (i : bytes) : Prop :=
  i = [48] \/ exists c d, i = c :: d /\ is_digit19 c = true /\ all_digits d = true.
Definition frac_shape (f : bytes) : Prop :=
  f = [] \/ exists c d, f = 46 :: c :: d /\ all_digits (c :: d) = true.
Definition exp_shape (e : bytes) : Prop :=
  e = [] \/ exists x sg c d, e = x :: sg ++ c :: d /\ ((x =? 101) || (x =? 69)) = true /\
                             (sg = [] \/ sg = [43] \/ sg = [45]) /\ all_digits (c :: d) = true.

Lemma scan_int_inv s i r : scan_int s = Some (i, r) -> s = i ++ r /\ int_shape i.
Proof.
  unfold scan_int. destruct s as [|c s']; [discriminate|].
  destruct (Z.eqb_spec c 48) as [->|N]; [intros [= <- <-]; split; [reflexivity|left; reflexivity]|].
  destruct (is_digit19 c) eqn:D; [|discriminate].
  destruct (span_digits s') as [d rest] eqn:S. intros [= <- <-].
  destruct (span_digits_split _ _ _ S) as [E A]. split; [cbn [app]; rewrite E at 1; reflexivity|].
  right. exists c, d. repeat split; assumption.
Qed.

Lemma scan_int_replay i X : int_shape i -> nd X = true -> scan_int (i ++ X) = Some (i, X).
Proof.
  intros [->|(c & d & -> & D & A)] N; [reflexivity|].
  cbn [app scan_int]. destruct (Z.eqb_spec c 48); [apply is_digit19_iff in D; lia|].
  rewrite D, (span_digits_nd d A X N). reflexivity.
Qed.

Lemma scan_frac_inv s f r : scan_frac s = Some (f, r) -> s = f ++ r /\ frac_shape f.
Proof.
  unfold scan_frac. destruct s as [|c s']; [intros [= <- <-]; split; [reflexivity|left; reflexivity]|].
  destruct (Z.eqb_spec c 46) as [->|N]; [|intros [= <- <-]; split; [reflexivity|left; reflexivity]].
  destruct (span_digits s') as [[|d0 d] rest] eqn:S; [discriminate|]. intros [= <- <-].
  destruct (span_digits_split _ _ _ S) as [E A]. split; [cbn [app]; rewrite E at 1; reflexivity|].
  right. exists d0, d. split; [reflexivity|exact A].
Qed.

Lemma scan_frac_replay f X : frac_shape f -> nd X = true -> (f = [] -> nodot X = true) ->
  scan_frac (f ++ X) = Some (f, X).
Proof.
  intros [->|(c & d & -> & A)] N Hd.
  - specialize (Hd eq_refl). cbn [app]. destruct X as [|x X']; [reflexivity|]. cbn [nodot] in Hd.
    cbn [scan_frac]. destruct (x =? 46); [discriminate|reflexivity].
  - change ((46 :: c :: d) ++ X) with (46 :: (c :: d) ++ X). cbn [scan_frac Z.eqb Pos.eqb].
    rewrite (span_digits_nd (c :: d) A X N). reflexivity.
Qed.

Lemma scan_exp_inv s e r : scan_exp s = Some (e, r) -> s = e ++ r /\ exp_shape e.
Proof.
  unfold scan_exp. destruct s as [|x s']; [intros [= <- <-]; split; [reflexivity|left; reflexivity]|].
  destruct ((x =? 101) || (x =? 69)) eqn:Ex; [|intros [= <- <-]; split; [reflexivity|left; reflexivity]].
  set (sp := match s' with g :: r' => if (g =? 43) || (g =? 45) then ([g], r') else ([], s') | [] => ([], s') end).
  assert (Hsp : s' = fst sp ++ snd sp /\ (fst sp = [] \/ fst sp = [43] \/ fst sp = [45])).
  { unfold sp. destruct s' as [|g r']; [split; [reflexivity|left; reflexivity]|].
    destruct (Z.eqb_spec g 43) as [->|N43]; [split; [reflexivity|right; left; reflexivity]|].
    destruct (Z.eqb_spec g 45) as [->|N45]; [split; [reflexivity|right; right; reflexivity]|].
    split; [reflexivity|left; reflexivity]. }
  destruct sp as [sg r1]. cbn [fst snd] in Hsp. destruct Hsp as [Es Hsg].
  destruct (span_digits r1) as [[|d0 d] rest] eqn:S; [discriminate|]. intros [= <- <-].
  destruct (span_digits_split _ _ _ S) as [E A]. split.
  - cbn [app]. rewrite Es, E. rewrite <- app_assoc. reflexivity.
  - right. exists x, sg, d0, d. repeat split; assumption.
Qed.

Lemma scan_exp_replay e X : exp_shape e -> nd X = true -> (e = [] -> noexp X = true) ->
  scan_exp (e ++ X) = Some (e, X).
Proof.
  intros [->|(x & sg & c & d & -> & Ex & Hsg & A)] N He.
  - specialize (He eq_refl). cbn [app]. destruct X as [|y X']; [reflexivity|]. cbn [noexp] in He.
    cbn [scan_exp]. destruct ((y =? 101) || (y =? 69)); [discriminate|reflexivity].
  - change ((x :: sg ++ c :: d) ++ X) with (x :: (sg ++ c :: d) ++ X). cbn [scan_exp]. rewrite Ex.
    rewrite <- app_assoc. pose proof (proj1 (all_digits_cons c d) A) as [Dc _]. apply is_digit_iff in Dc.
    destruct Hsg as [->|[->| ->]]; cbn [app].
    + destruct (Z.eqb_spec c 43); [lia|]. destruct (Z.eqb_spec c 45); [lia|]. cbn [orb].
      change (c :: d ++ X) with ((c :: d) ++ X). rewrite (span_digits_nd (c :: d) A X N). reflexivity.
    + cbn [Z.eqb Pos.eqb orb]. change (c :: d ++ X) with ((c :: d) ++ X).
      rewrite (span_digits_nd (c :: d) A X N). reflexivity.
    + cbn [Z.eqb Pos.eqb orb]. change (c :: d ++ X) with ((c :: d) ++ X).
      rewrite (span_digits_nd (c :: d) A X N). reflexivity.
Qed.

Definition scan_uns (s1 : bytes) : option (bytes * bytes) :=
  match scan_int s1 with
  | None => None
  | Some (i, s2) =>
    match scan_frac s2 with
    | None => None
    | Some (f, s3) =>
      match scan_exp s3 with
      | None => None
      | Some (e, s4) => Some (i ++ f ++ e, s4)
      end
    end
  end.

Definition stop (rest : bytes) : bool :=
  match rest with
  | [] => true
  | c :: _ => negb (is_digit c || (c =? 46) || (c =? 101) || (c =? 69))
  end.

Lemma stop_parts rest : stop rest = true -> nd rest = true /\ nodot rest = true /\ noexp rest = true.
Proof.
  destruct rest as [|c r]; [repeat split|]. cbn [stop nd nodot noexp]. intros H.
  destruct (is_digit c); [discriminate|]. destruct (c =? 46); [discriminate|].
  destruct (c =? 101); [discriminate|]. destruct (c =? 69); [discriminate|]. repeat split.
Qed.

Lemma nd_app_nonempty a X : nd (a ++ X) = match a with [] => nd X | c :: _ => negb (is_digit c) end.
Proof. destruct a; reflexivity. Qed.

Lemma exp_char_nd x : (x =? 101) || (x =? 69) = true -> is_digit x = false /\ (x =? 46) = false.
Proof. intros H. apply orb_true_iff in H as [H|H]; apply Z.eqb_eq in H; subst x; split; reflexivity. Qed.

Definition uns_shape (u : bytes) : Prop :=
  exists i f e, u = i ++ f ++ e /\ int_shape i /\ frac_shape f /\ exp_shape e.
Definition num_shape (n : bytes) : Prop := uns_shape n \/ exists u, n = 45 :: u /\ uns_shape u.

Lemma scan_uns_inv s u rest : scan_uns s = Some (u, rest) -> s = u ++ rest /\ uns_shape u.
Proof.
  unfold scan_uns.
  destruct (scan_int s) as [[i s2]|] eqn:Si; [|discriminate].
  destruct (scan_frac s2) as [[f s3]|] eqn:Sf; [|discriminate].
  destruct (scan_exp s3) as [[e s4]|] eqn:Se; [|discriminate]. intros [= <- <-].
  destruct (scan_int_inv _ _ _ Si) as [E1 Hi].
  destruct (scan_frac_inv _ _ _ Sf) as [E2 Hf].
  destruct (scan_exp_inv _ _ _ Se) as [E3 He].
  split; [rewrite E1, E2, E3, <- !app_assoc; reflexivity|]. exists i, f, e. auto.
Qed.

Lemma uns_shape_head u : uns_shape u -> exists c t, u = c :: t /\ is_digit c = true.
Proof.
  intros (i & f & e & -> & [->|(c & d & -> & D & _)] & _).
  - exists 48, (f ++ e). split; reflexivity.
  - exists c, (d ++ f ++ e). split; [reflexivity|exact (is_digit19_digit c D)].
Qed.

Lemma scan_uns_shape u : uns_shape u -> forall rest, stop rest = true -> scan_uns (u ++ rest) = Some (u, rest).
Proof.
  intros (i & f & e & -> & Hi & Hf & He) rest St. destruct (stop_parts rest St) as (Nd & Ndot & Nexp).
  (* each part is followed by a byte that cannot continue it *)
  assert (Ne : nd (e ++ rest) = true /\ nodot (e ++ rest) = true).
  { destruct He as [->|(x & sg & c & d & -> & Ex & _)]; [split; assumption|].
    destruct (exp_char_nd x Ex) as [Dx Px]. cbn [app nd nodot]. rewrite Dx, Px. split; reflexivity. }
  destruct Ne as [Ne Dote].
  assert (Nf : nd (f ++ e ++ rest) = true).
  { destruct Hf as [->|(c & d & -> & _)]; [exact Ne|reflexivity]. }
  unfold scan_uns. rewrite <- !app_assoc.
  rewrite (scan_int_replay i _ Hi Nf).
  rewrite (scan_frac_replay f _ Hf Ne (fun _ => Dote)).
  rewrite (scan_exp_replay e _ He Nd (fun _ => Nexp)). reflexivity.
Qed.

(* only the integer part alone consists of digits, and it has no leading zero *)
Lemma num_shape_ok u : num_shape u -> num_ok u = true.
Proof.
  intros [U|(u' & -> & U)]; [|reflexivity]. destruct (uns_shape_head u U) as (c0 & t0 & E0 & D0). unfold num_ok.
  rewrite E0 at 1. rewrite D0, orb_true_r. cbn [andb]. clear c0 t0 E0 D0.
  destruct U as (i & f & e & -> & Hi & Hf & He).
  destruct He as [->|(x & sg & c & d & -> & Ex & _)];
    [|rewrite app_assoc, (all_digits_app_nondigit _ x _ (proj1 (exp_char_nd x Ex))); reflexivity].
  rewrite app_nil_r. destruct Hf as [->|(c & d & -> & _)];
    [|rewrite (all_digits_app_nondigit i 46 _ eq_refl); reflexivity].
  rewrite app_nil_r. destruct Hi as [->|(c & d & -> & D19 & Dd)]; [reflexivity|].
  unfold canon_number. destruct (all_digits (c :: d)); [|reflexivity]. cbn [andb].
  destruct d; [reflexivity|]. apply negb_true_iff, Z.eqb_neq. apply is_digit19_iff in D19. lia.
Qed.

Lemma canon_num_shape raw : canon_number raw = true -> num_shape raw.
Proof.
  unfold canon_number. intros H. left. apply andb_true_iff in H as [D H].
  exists raw, [], []. rewrite !app_nil_r. repeat split; try (left; reflexivity).
  destruct raw as [|c d]; [discriminate|]. apply all_digits_cons in D as [Dc Dd].
  destruct (Z.eqb_spec c 48) as [->|N]; [destruct d; [left; reflexivity|discriminate]|].
  right. exists c, d. repeat split; [|exact Dd]. apply is_digit19_iff. apply is_digit_iff in Dc. lia.
Qed.

Lemma scan_number_uns s : scan_number s =
  match s with
  | c :: r => if c =? 45 then match scan_uns r with Some (u, r') => Some (45 :: u, r') | None => None end
              else scan_uns s
  | [] => None
  end.
Proof.
  unfold scan_number, scan_uns. destruct s as [|c r]; [reflexivity|].
  destruct (Z.eqb_spec c 45) as [->|N].
  - destruct (scan_int r) as [[i s2]|]; [|reflexivity].
    destruct (scan_frac s2) as [[f s3]|]; [|reflexivity].
    destruct (scan_exp s3) as [[e s4]|]; reflexivity.
  - destruct (scan_int (c :: r)) as [[i s2]|]; [|reflexivity].
    destruct (scan_frac s2) as [[f s3]|]; [|reflexivity].
    destruct (scan_exp s3) as [[e s4]|]; reflexivity.
Qed.

Theorem scan_number_inv s n rest : scan_number s = Some (n, rest) -> s = n ++ rest /\ num_shape n.
Proof.
  rewrite scan_number_uns. destruct s as [|c r]; [discriminate|].
  destruct (Z.eqb_spec c 45) as [->|N].
  - destruct (scan_uns r) as [[u r']|] eqn:Su; [|discriminate]. intros [= <- <-].
    destruct (scan_uns_inv _ _ _ Su) as [E U]. split; [cbn [app]; rewrite E at 1; reflexivity|].
    right. exists u. split; [reflexivity|exact U].
  - intros Su. destruct (scan_uns_inv _ _ _ Su) as [E U]. split; [exact E|left; exact U].
Qed.

Theorem scan_number_shape n : num_shape n -> forall rest, stop rest = true ->
  scan_number (n ++ rest) = Some (n, rest).
Proof.
  intros [U|(u & -> & U)] rest St; rewrite scan_number_uns.
  - destruct (uns_shape_head n U) as (c & t & -> & Dc). cbn [app].
    destruct (Z.eqb_spec c 45); [apply is_digit_iff in Dc; lia|]. exact (scan_uns_shape _ U rest St).
  - cbn [app Z.eqb Pos.eqb]. rewrite (scan_uns_shape u U rest St). reflexivity.
Qed.

Lemma num_shape_head n : num_shape n -> exists c t, n = c :: t /\ ((c =? 45) || is_digit c) = true.
Proof.
  intros [U|(u & -> & U)]; [|exists 45, u; split; reflexivity].
  destruct (uns_shape_head n U) as (c & t & -> & Dc). exists c, t. split; [reflexivity|]. rewrite Dc. apply orb_true_r.
Qed.

