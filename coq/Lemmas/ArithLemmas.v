(* Lemmas/ArithLemmas.v — facts about Convert, Refund, PayoutBig, Payouts. *)
From Coq Require Import ZArith List Bool Lia.
From Model Require Import Base Arith.
Import ListNotations.
Open Scope Z_scope.

Definition rate_src (pip10 : bool) (fr fa : Z) : Z := if pip10 then Z.min fr fa else fr.
Definition rate_dst (pip10 : bool) (tr ta : Z) : Z := if pip10 then Z.max tr ta else tr.

(* the error condition, as the property states it *)
Definition convert_defined (pip10 : bool) (amt fr fa tr ta : Z) : Prop :=
  0 <= amt /\ fr <> 0 /\ tr <> 0 /\ (pip10 = true -> fa <> 0 /\ ta <> 0) /\
  (amt * rate_src pip10 fr fa) / rate_dst pip10 tr ta <= max_int64.

(* Convert in one normal form: the refusals, then the floor; both eras at once *)
Lemma convert_eq pip10 amt fr fa tr ta :
  convert pip10 amt fr fa tr ta =
  if (amt <? 0) || (fr =? 0) || (tr =? 0) || (pip10 && ((fa =? 0) || (ta =? 0))) then None
  else let q := amt * rate_src pip10 fr fa / rate_dst pip10 tr ta in if q <=? max_int64 then Some q else None.
Proof.
  unfold convert, rate_src, rate_dst.
  destruct (amt <? 0); [reflexivity|]. destruct (fr =? 0); [reflexivity|]. destruct (tr =? 0); [reflexivity|]. cbn [orb].
  destruct pip10; cbn [andb]; [|reflexivity]. destruct ((fa =? 0) || (ta =? 0)); [reflexivity|].
  replace (if fa <? fr then fa else fr) with (Z.min fr fa) by (destruct (Z.ltb_spec fa fr); lia).
  replace (if tr <? ta then ta else tr) with (Z.max tr ta) by (destruct (Z.ltb_spec tr ta); lia).
  reflexivity.
Qed.

Lemma convert_spec pip10 amt fr fa tr ta :
  0 <= fr -> 0 <= fa -> 0 <= tr -> 0 <= ta ->
  (convert_defined pip10 amt fr fa tr ta /\
   convert pip10 amt fr fa tr ta =
     Some ((amt * rate_src pip10 fr fa) / rate_dst pip10 tr ta))
  \/ (~ convert_defined pip10 amt fr fa tr ta /\ convert pip10 amt fr fa tr ta = None).
Proof.
  intros _ _ _ _. rewrite convert_eq. unfold convert_defined. cbv zeta.
  destruct (Z.ltb_spec amt 0); cbn [orb]; [right; split; [lia|reflexivity]|].
  destruct (Z.eqb_spec fr 0); cbn [orb]; [right; split; [tauto|reflexivity]|].
  destruct (Z.eqb_spec tr 0); cbn [orb]; [right; split; [tauto|reflexivity]|].
  destruct (pip10 && ((fa =? 0) || (ta =? 0))) eqn:E.
  - right; split; [|reflexivity]. intros (_&_&_&K&_). apply andb_prop in E as [-> E]. destruct (K eq_refl). lia.
  - destruct (Z.leb_spec (amt * rate_src pip10 fr fa / rate_dst pip10 tr ta) max_int64).
    + left; split; [|reflexivity]. repeat (split; [assumption|]). split; [|assumption].
      intros ->. apply orb_false_iff in E as [E1 E2]. apply Z.eqb_neq in E1, E2. auto.
    + right; split; [intros (_&_&_&_&K); lia|reflexivity].
Qed.

Lemma convert_some_inv pip10 amt fr fa tr ta out :
  0 <= fr -> 0 <= fa -> 0 <= tr -> 0 <= ta ->
  convert pip10 amt fr fa tr ta = Some out ->
  convert_defined pip10 amt fr fa tr ta /\
  out = (amt * rate_src pip10 fr fa) / rate_dst pip10 tr ta.
Proof.
  intros Hfr Hfa Htr Hta H.
  destruct (convert_spec pip10 amt fr fa tr ta Hfr Hfa Htr Hta) as [[D E]|[D E]];
    rewrite E in H; [injection H as <-; auto | discriminate].
Qed.

Lemma convert_range pip10 amt fr fa tr ta out :
  0 <= fr -> 0 <= fa -> 0 <= tr -> 0 <= ta ->
  convert pip10 amt fr fa tr ta = Some out -> 0 <= out <= max_int64.
Proof.
  intros Hfr Hfa Htr Hta H.
  destruct (convert_some_inv _ _ _ _ _ _ _ Hfr Hfa Htr Hta H) as [(Ha&Hf&Ht&Hp&Hq) ->].
  split; [|exact Hq].
  apply Z.div_pos.
  - apply Z.mul_nonneg_nonneg; [lia|]. unfold rate_src; destruct pip10; lia.
  - unfold rate_dst; destruct pip10; lia.
Qed.

Lemma convert_floor pip10 amt fr fa tr ta out :
  0 <= fr -> 0 <= fa -> 0 <= tr -> 0 <= ta ->
  convert pip10 amt fr fa tr ta = Some out ->
  let rs := rate_src pip10 fr fa in let rd := rate_dst pip10 tr ta in
  out * rd <= amt * rs < (out + 1) * rd.
Proof.
  intros Hfr Hfa Htr Hta H rs rd.
  destruct (convert_some_inv _ _ _ _ _ _ _ Hfr Hfa Htr Hta H) as [(Ha&Hf&Ht&Hp&Hq) E].
  fold rs rd in E, Hq.
  assert (Hrd : 0 < rd) by (unfold rd, rate_dst; destruct pip10; lia).
  subst out.
  pose proof (Z.mul_div_le (amt * rs) rd Hrd).
  pose proof (Z.mul_succ_div_gt (amt * rs) rd Hrd).
  lia.
Qed.

(* A conversion never yields more USD value (at spot rates) than was put in. *)
Lemma convert_value_nonincreasing pip10 amt fr fa tr ta out :
  0 <= fr -> 0 <= fa -> 0 <= tr -> 0 <= ta ->
  convert pip10 amt fr fa tr ta = Some out ->
  out * tr <= amt * fr.
Proof.
  intros Hfr Hfa Htr Hta H.
  pose proof (convert_range _ _ _ _ _ _ _ Hfr Hfa Htr Hta H) as [Ho _].
  pose proof (convert_floor _ _ _ _ _ _ _ Hfr Hfa Htr Hta H) as [F _].
  destruct (convert_some_inv _ _ _ _ _ _ _ Hfr Hfa Htr Hta H) as [(Ha & _) _].
  assert (rate_src pip10 fr fa <= fr /\ tr <= rate_dst pip10 tr ta) by (unfold rate_src, rate_dst; destruct pip10; lia).
  nia.
Qed.

Lemma refund_nonneg pip10 inp y ir pr : 0 <= ir -> 0 <= pr -> 0 <= refund pip10 inp y ir pr.
Proof.
  intros Hi Hp. unfold refund.
  destruct (convert pip10 _ pr pr ir ir) eqn:E; [|lia].
  apply (convert_range _ _ _ _ _ _ _ Hp Hp Hi Hi E).
Qed.

(* yield (in PEG) valued at the PEG rate plus refund valued at the input rate never
   exceeds the value of the input *)
Lemma refund_bound pip10 inp y ir pr :
  0 <= ir -> 0 <= pr -> 0 <= y ->
  forall maxy, convert pip10 inp ir ir pr pr = Some maxy -> y <= maxy ->
  y * pr + refund pip10 inp y ir pr * ir <= inp * ir.
Proof.
  intros Hi Hp Hy maxy Hm Hle. unfold refund. rewrite Hm.
  pose proof (convert_value_nonincreasing _ _ _ _ _ _ _ Hi Hi Hp Hp Hm) as V1.
  destruct (convert pip10 (maxy - y) pr pr ir ir) eqn:E.
  - pose proof (convert_value_nonincreasing _ _ _ _ _ _ _ Hp Hp Hi Hi E) as V2. nia.
  - nia.
Qed.

Lemma wrap64_small x : 0 <= x < two64 -> wrap64 x = x.
Proof. intros; unfold wrap64; apply Z.mod_small; assumption. Qed.

Definition reqs_ok (rs : requests) : Prop := Forall (fun r => 0 <= snd r < two64) rs.
Definition txids_nodup (rs : requests) : Prop := NoDup (map fst rs).

Lemma reqs_ok_nonneg rs : reqs_ok rs -> Forall (fun r => 0 <= snd r) rs.
Proof. apply Forall_impl. intros r; lia. Qed.

Lemma payout_big_bounds req bank total :
  0 <= req <= total -> 0 <= bank < two64 ->
  payout_big req bank total = (if (req =? 0) || (bank =? 0) || (total =? 0) then 0 else req * bank / total)
  /\ 0 <= payout_big req bank total <= bank.
Proof.
  intros Hr Hb. unfold payout_big.
  destruct ((req =? 0) || (bank =? 0) || (total =? 0)) eqn:E; [split; [reflexivity|lia]|].
  apply orb_false_iff in E as [E E3]. apply orb_false_iff in E as [E1 E2].
  apply Z.eqb_neq in E1, E2, E3.
  assert (0 <= req * bank / total <= bank).
  { split; [apply Z.div_pos; nia|].
    apply Z.div_le_upper_bound; [lia|]. nia. }
  rewrite wrap64_small by lia. split; [reflexivity|lia].
Qed.

(* sums of amounts: [total_requested_big] is [sum_snd] on requests *)
Lemma sum_snd_cons {A} (r : A * Z) l : sum_snd (r :: l) = snd r + sum_snd l.
Proof. reflexivity. Qed.

Lemma sum_snd_ge_each {A} (l : list (A * Z)) :
  Forall (fun x => 0 <= snd x) l -> 0 <= sum_snd l /\ Forall (fun x => 0 <= snd x <= sum_snd l) l.
Proof.
  induction 1 as [|x l Hx _ [IH0 IH]]; [split; [cbn; lia|constructor]|]. rewrite sum_snd_cons.
  split; [lia|]. constructor; [lia|]. revert IH. apply Forall_impl. intros; lia.
Qed.

Lemma payout_shares (rs : requests) bank total :
  0 <= bank < two64 -> bank <= total -> Forall (fun r => 0 <= snd r <= total) rs ->
  let base := map (fun r => (fst r, payout_big (snd r) bank total)) rs in
  Forall (fun x => 0 <= snd x) base /\ sum_snd base * total <= sum_snd rs * bank /\ sum_snd base <= sum_snd rs.
Proof.
  intros Hb Hbt H. induction H as [|r rs Hr _ (IH0 & IH1 & IH2)]; cbn [map]; [split; [constructor|cbn; lia]|].
  rewrite !sum_snd_cons. cbn [fst snd]. destruct (payout_big_bounds (snd r) bank total Hr Hb) as [E B].
  split; [constructor; [apply B|exact IH0]|]. rewrite E.
  destruct (Z.eqb_spec total 0) as [->|Ht]; [rewrite orb_true_r; lia|].
  destruct (_ || _ || _); [nia|].
  pose proof (Z.mul_div_le (snd r * bank) total ltac:(lia)).
  assert (snd r * bank / total <= snd r) by (apply Z.div_le_upper_bound; nia). lia.
Qed.

Lemma dust_winner_in rs w : dust_winner rs = Some w -> In w rs.
Proof.
  revert w; induction rs as [|r rs IH]; cbn; [discriminate|].
  intros w. destruct (dust_winner rs) as [w0|].
  - destruct (better r w0); intros [= <-]; [left; reflexivity | right; apply IH; reflexivity].
  - intros [= <-]; left; reflexivity.
Qed.

Lemma dust_winner_some rs : rs <> [] -> exists w, dust_winner rs = Some w.
Proof.
  destruct rs as [|r rs]; [congruence|]. intros _. cbn.
  destruct (dust_winner rs) as [w0|]; [destruct (better r w0)|]; eauto.
Qed.

Lemma dust_winner_none rs : dust_winner rs = None -> rs = [].
Proof.
  intros H. destruct rs as [|r rs]; [reflexivity|].
  destruct (dust_winner_some (r :: rs)) as [w Hw]; [discriminate|congruence].
Qed.

Lemma txid_eqb_eq a b : txid_eqb a b = true <-> a = b.
Proof.
  unfold txid_eqb. destruct a, b; cbn. rewrite andb_true_iff, !Z.eqb_eq.
  split; [intros [-> ->]; reflexivity | intros [= -> ->]; auto].
Qed.

Lemma txid_eqb_refl a : txid_eqb a a = true.
Proof. apply txid_eqb_eq; reflexivity. Qed.

Lemma sum_snd_bump (l : list (txid * Z)) (w : txid) d (g : txid * Z -> txid * Z) :
  NoDup (map fst l) -> In w (map fst l) ->
  (forall r, In r l -> fst r = w -> snd (g r) = snd r + d) ->
  sum_snd (map (fun r => if txid_eqb (fst r) w then g r else r) l) = sum_snd l + d.
Proof.
  intros ND Hin Hg. induction l as [|r l IH]; cbn [map In] in *; [tauto|].
  inversion ND as [|? ? Hnotin ND']; subst. rewrite !sum_snd_cons.
  destruct (txid_eqb (fst r) w) eqn:E.
  - apply txid_eqb_eq in E. subst w. rewrite (Hg r) by auto.
    (* the other keys differ: the rest of the list is left as it is *)
    rewrite (map_ext_in _ (fun r0 => r0)), map_id; [lia|].
    intros x Hx. destruct (txid_eqb (fst x) (fst r)) eqn:Ex; [|reflexivity].
    apply txid_eqb_eq in Ex. destruct Hnotin. rewrite <- Ex. apply in_map, Hx.
  - destruct Hin as [Hin|Hin]; [subst w; rewrite txid_eqb_refl in E; discriminate|].
    rewrite (IH ND' Hin (fun r' Hr' => Hg r' (or_intror Hr'))). lia.
Qed.

Lemma map_fst_payout (rs : requests) bank total :
  map fst (map (fun r => (fst r, payout_big (snd r) bank total)) rs) = map fst rs.
Proof. rewrite map_map; cbn; reflexivity. Qed.

Lemma payouts_below bank (rs : requests) :
  reqs_ok rs -> 0 <= bank < two64 -> total_requested_big rs < bank -> payouts bank rs = rs.
Proof.
  intros Hok Hb Hlt. unfold payouts. destruct rs as [|r0 rs0] eqn:Ers; [reflexivity|]. rewrite <- Ers in *.
  rewrite (proj2 (Z.ltb_lt _ bank) Hlt), (proj2 (Z.ltb_lt _ two64)) by lia. reflexivity.
Qed.

(* Main arithmetic fact about Payouts: when the total requested reaches the bank, every unit of
   the bank is handed out, never more: the floors add up to at most the bank, and the rest (the
   dust) goes to one request *)
Theorem payouts_total (bank : Z) (rs : requests) :
  reqs_ok rs -> txids_nodup rs -> 0 <= bank < two64 -> rs <> [] -> bank <= total_requested_big rs ->
  sum_snd (payouts bank rs) = bank.
Proof.
  intros Hok ND Hb Hne Hge. destruct (dust_winner_some rs Hne) as [w Hw].
  unfold payouts. destruct rs as [|r0 rs0] eqn:Ers; [congruence|]. rewrite <- Ers in *.
  rewrite (proj2 (Z.ltb_ge _ bank) Hge), andb_false_r, Hw.
  set (base := map (fun r => (fst r, payout_big (snd r) bank (total_requested_big rs))) rs).
  fold (sum_snd base).
  destruct (payout_shares rs bank (total_requested_big rs) Hb Hge (proj2 (sum_snd_ge_each rs (reqs_ok_nonneg rs Hok)))) as (Hnn & S1 & S2).
  fold base in Hnn, S1, S2. destruct (sum_snd_ge_each base Hnn) as [S0 Heach].
  assert (Hsum : sum_snd base <= bank) by (change (total_requested_big rs) with (sum_snd rs) in Hge, S1; nia).
  rewrite (wrap64_small (sum_snd base)), (wrap64_small (bank - sum_snd base)) by lia.
  rewrite (sum_snd_bump base (fst w) (bank - sum_snd base)).
  - lia.
  - unfold base. rewrite map_fst_payout. exact ND.
  - unfold base. rewrite map_fst_payout. apply in_map, dust_winner_in, Hw.
  - intros r Hr _. rewrite Forall_forall in Heach. specialize (Heach r Hr). apply wrap64_small. lia.
Qed.
