(* Lemmas/HistoryLemmas3.v — whole-block and chain-level form of "the history tables account for
   the balances" (C17 second sentence / block-level C04), under explicit hypotheses:
     (H1) no entry hash occurs twice in pn_history_txbatch of the RESULTING state (checkable on a dump);
     (H2) no transaction of the chain converts into PEG (hence no PEG request, no bank-era payout);
     (H4) the oracle inputs are sane: winners' heights positive, payouts are uint64, reported asset
          values non-negative; block heights positive.
   The at-most-once property of held batches is PROVED here from the invariant (it is not a hypothesis). *)
From Model Require Import Obs Examples.
From Lemmas Require Import DbLemmas LedgerLemmas BlockLemmas ChainLemmas HoldingLemmas
     StatusLemmas HistoryLemmas HistoryLemmas2.
From Gen Require Import Consts.
From Coq Require Import Lia RelationClasses.
Open Scope Z_scope.
Open Scope list_scope.

Definition hashes (s : db) : list hash := map hb_hash (hist s).
(* what the held entries are read through, and how a write may move it: batch-row hashes and held entries are
   only appended, a hash that has relation rows keeps having them *)
Definition pA (s : db) := (hashes s, rel s, holding s).
Definition RA (a b : list hash * gmap hash (list (addr * Z * bool * bool)) * list held) : Prop :=
  prefix (fst (fst a)) (fst (fst b)) /\ rel_ext (snd (fst a)) (snd (fst b)) /\ prefix (snd a) (snd b).
Global Instance RA_po : PreOrder RA.
Proof.
  split.
  - intros [[a b] d]. repeat split; reflexivity.
  - intros [[a1 b1] d1] [[a2 b2] d2] [[a3 b3] d3] (H1 & H2 & H3) (K1 & K2 & K3). cbn in *.
    repeat split; etransitivity; eassumption.
Qed.
Lemma RA_same s s' : hashes s' = hashes s -> rel s' = rel s -> holding s' = holding s -> RA (pA s) (pA s').
Proof. intros H1 H2 H3. unfold RA, pA. cbn. rewrite H1, H2, H3. repeat split; reflexivity. Qed.

Lemma lstep_RA K rw ex s s' : lstep K rw ex s s' -> RA (pA s) (pA s').
Proof.
  intros H. pose proof (lstep_rel_ext _ _ _ _ _ H) as Hrel. revert Hrel.
  destruct H as [| | | | | |rw s hs code| | |ex s r s' H|ex s r lk s' _ H|ex s e h s' _ H];
    try (untouched; intros _; apply RA_same; reflexivity); intros Hrel.
  - unfold RA, pA, hashes. cbn [fst snd]. rewrite hist_insert_relation. repeat split; [reflexivity|exact Hrel|].
    rewrite insert_relation_set_rel. reflexivity.
  - apply RA_same; try reflexivity. apply mark_exec_hashes.
  - apply insert_hbatch_ok in H as [_ ->]. unfold RA, pA, hashes. cbn. rewrite map_app.
    repeat split; try reflexivity. eexists; reflexivity.
  - apply insert_holding_ok in H as [_ ->]. unfold RA, pA. cbn. repeat split; try reflexivity. eexists; reflexivity.
Qed.
Lemma lwrites_RA K rw ex s s' : lwrites K rw ex s s' -> RA (pA s) (pA s').
Proof. apply (lwrites_pres pA RA). apply lstep_RA. Qed.
Definition pB (s : db) := rates s.
Definition pC (s : db) := holding s.

Section Frames.
Variable c : cfg.
Lemma frA_record_peg h s batches rates avgs bankamt bh s' :
  record_peg_requests c h s batches rates avgs bankamt bh = Ok s' -> RA (pA s) (pA s').
Proof. intros H. exact (lwrites_RA True _ _ _ _ (record_peg_requests_writes c _ _ _ _ _ _ _ _ H)). Qed.
Lemma frB_nullify_burn cm h ts s : pB s = pB (nullify_burn c cm h ts s).
Proof. exact (lwrites_rates _ _ _ _ _ (nullify_burn_writes c cm h ts s)). Qed.
Lemma frC_nullify_burn cm h ts s : pC s = pC (nullify_burn c cm h ts s).
Proof.
  apply (nullify_burn_ind c (fun x y => pC x = pC y)); cbv zeta; intros; [|untouched..].
  symmetry. eapply lwrites_holding, sub_ignoring_writes. eassumption.
Qed.
End Frames.

(* (H2) no transaction converts into PEG *)
Definition tx_clean (t : tx) : bool := negb (tx_conv t =? PTickerPEG).
Definition entry_clean (e : entry) : bool :=
  match e_batch e with Some txs => forallb tx_clean txs | None => true end.
(* (H4) a verdict of the graders: heights positive, payouts are uint64, reported values non-negative *)
Definition winner_okb (w : winner) : bool :=
  (0 <? w_height w) && match w_addr w with Some _ => wrap64 (w_payout w) =? w_payout w | None => true end.
Definition verdict_okb (v : verdict) : bool :=
  forallb winner_okb (v_winners v) && forallb (fun a => 0 <=? snd a) (v_assets v).
Definition block_okb (b : block) : bool :=
  (0 <? b_height b) &&
  match b_tx b with Some es => forallb entry_clean es | None => true end &&
  match b_opr b with Some oi => forallb (fun a => match snd a with Some v => verdict_okb v | None => true end) (oi_alts oi) | None => true end &&
  match b_spr b with Some si => forallb (fun a => match snd a with Some v => verdict_okb v | None => true end) (si_alts si) | None => true end.

Lemma rows_of_via_not X X' l : X <> X' -> rows_of X (rows_not X' l) = rows_of X l.
Proof.
  intros N. unfold rows_of, rows_not. induction l as [|r l IH]; [reflexivity|]. cbn [filter].
  destruct (Z.eqb_spec (ht_hash r) X') as [E|E]; cbn [negb filter].
  - destruct (Z.eqb_spec (ht_hash r) X); [congruence|exact IH].
  - destruct (ht_hash r =? X); [f_equal|]; exact IH.
Qed.

Section Inv.
Variable c : cfg.

Lemma clean_facts e h txs :
  entry_clean e = true -> entry_valid_at c e h = Some txs ->
  has_peg_conversion txs = false /\ existsb is_peg_request txs = false /\ forall cur, no_deferred c cur txs = true.
Proof.
  unfold entry_clean, entry_valid_at. destruct (e_batch e) as [b|]; [|discriminate]. intros Hc Hv.
  destruct (_ && _); [discriminate|]. destruct (forallb tx_amounts_okb b); [|discriminate]. inversion Hv; subst.
  rewrite forallb_forall in Hc.
  assert (H1 : has_peg_conversion txs = false).
  { unfold has_peg_conversion. destruct (existsb _ txs) eqn:E; [|reflexivity]. apply existsb_exists in E as (t & Hin & Ht).
    specialize (Hc t Hin). unfold tx_clean in Hc. rewrite Ht in Hc. discriminate. }
  assert (H2 : existsb is_peg_request txs = false).
  { destruct (existsb is_peg_request txs) eqn:E; [|reflexivity]. apply existsb_exists in E as (t & Hin & Ht).
    specialize (Hc t Hin). unfold tx_clean in Hc. unfold is_peg_request in Ht. destruct (tx_transfers t); [|discriminate].
    rewrite Ht in Hc. discriminate. }
  split; [exact H1|]. split; [exact H2|]. intros cur. unfold no_deferred. rewrite H2, andb_false_r. reflexivity.
Qed.

Lemma entry_valid_at_mono e h h' txs : entry_valid_at c e h = Some txs -> h <= h' -> entry_valid_at c e h' = Some txs.
Proof.
  unfold entry_valid_at. destruct (e_batch e) as [b|]; [|discriminate]. intros H Hle.
  destruct (e_rcde e); cbn [andb] in *; [|exact H].
  destruct (Z.ltb_spec (c_Fat2RCDEActivation c) h); cbn [negb] in *; [|discriminate].
  destruct (Z.ltb_spec (c_Fat2RCDEActivation c) h'); cbn [negb]; [exact H|lia].
Qed.

(* what is known about an entry waiting in (or left behind in) the holding table *)
Definition held_inv (s : db) (x : held) : Prop :=
  has_batch (hist s) (e_hash (h_entry x)) = true /\
  entry_clean (h_entry x) = true /\
  (0 < exec_of (hist s) (e_hash (h_entry x)) -> is_replay s (e_hash (h_entry x)) = true) /\
  (is_replay s (e_hash (h_entry x)) = false -> forall txs, entry_valid_at c (h_entry x) (h_height x) = Some txs ->
     rows_of (e_hash (h_entry x)) (htxs s) = pend_rows (e_hash (h_entry x)) 0 txs).
Definition held_ok (s : db) : Prop :=
  Forall (held_inv s) (holding s) /\ NoDup (map (fun x => e_hash (h_entry x)) (holding s)).
Definition rates_nonneg (s : db) : Prop := forall k m t, rates s !! k = Some m -> 0 <= rate_of m t.
(* the invariant of the chain theorem *)
Definition G (s : db) : Prop := hist_ok c s /\ held_ok s /\ rates_nonneg s.

Lemma is_replay_mono s s' X : rel_ext (rel s) (rel s') -> is_replay s X = true -> is_replay s' X = true.
Proof. intros H Hr. apply is_replay_replayed. apply H. apply is_replay_replayed. exact Hr. Qed.

Lemma held_inv_keep s s' x :
  held_inv s x ->
  has_batch (hist s') (e_hash (h_entry x)) = true ->
  (exec_of (hist s') (e_hash (h_entry x)) = exec_of (hist s) (e_hash (h_entry x)) \/ exec_of (hist s') (e_hash (h_entry x)) <= 0) ->
  rel_ext (rel s) (rel s') ->
  rows_of (e_hash (h_entry x)) (htxs s') = rows_of (e_hash (h_entry x)) (htxs s) ->
  held_inv s' x.
Proof.
  intros (I1 & I2 & I3 & I4) Hb He Hr Hrows. split; [exact Hb|]. split; [exact I2|]. split.
  - intros Hpos. destruct He as [He|He]; [|lia]. rewrite He in Hpos. eapply is_replay_mono; [exact Hr|]. apply I3; exact Hpos.
  - intros Hn txs Hv. rewrite Hrows. apply I4; [|exact Hv].
    destruct (is_replay s (e_hash (h_entry x))) eqn:E; [|reflexivity]. rewrite (is_replay_mono _ _ _ Hr E) in Hn. discriminate.
Qed.

Lemma held_inv_other X s s' x :
  e_hash (h_entry x) <> X -> rows_not X (htxs s') = rows_not X (htxs s) -> only X (hist s) (hist s') ->
  rel_ext (rel s) (rel s') -> held_inv s x -> held_inv s' x.
Proof.
  intros N Hn Ho Hr Hx. destruct (Ho _ N) as [E1 E2].
  apply (held_inv_keep s s' x Hx); [rewrite E2; apply Hx|left; exact E1|exact Hr|].
  rewrite <- (rows_of_via_not _ X (htxs s') N), Hn. apply rows_of_via_not; exact N.
Qed.

Lemma G_frame s s' :
  hist s' = hist s -> htxs s' = htxs s -> rel s' = rel s -> holding s' = holding s ->
  hist_ok c s' -> rates_nonneg s' -> G s -> G s'.
Proof.
  intros H1 H2 H3 H4 Hok Hr (_ & [K2 K2'] & _). split; [exact Hok|]. split; [|exact Hr].
  split; [|rewrite H4; exact K2']. rewrite H4. eapply Forall_impl; [|exact K2]. intros x Hx.
  apply (held_inv_keep s s' x Hx); rewrite ?H1, ?H2, ?H3; try reflexivity; [apply Hx|left; reflexivity].
Qed.
Lemma G_same s s' :
  hist s' = hist s -> htxs s' = htxs s -> rel s' = rel s -> holding s' = holding s -> rates s' = rates s ->
  (forall a t, special_addr a = false -> get_bal (bal s') a t = get_bal (bal s) a t) ->
  G s -> G s'.
Proof.
  intros H1 H2 H3 H4 H5 H6 HG. refine (G_frame s s' H1 H2 H3 H4 (hist_ok_bal_special c s s' H1 H2 H6 (proj1 HG)) _ HG).
  unfold rates_nonneg. rewrite H5. apply HG.
Qed.
(* the one-time adjustments write balances only *)
Lemma G_bal_only K s s' : lwrites K false false s s' -> hist_ok c s' -> G s -> G s'.
Proof.
  intros Hw. assert (E : (hist s, htxs s, rel s, holding s, rates s) = (hist s', htxs s', rel s', holding s', rates s')).
  { revert s s' Hw. apply (lwrites_pres (fun x => (hist x, htxs x, rel x, holding x, rates x)) eq).
    intros s s' H. inversion H; subst; untouched. }
  inversion E as [[E1 E2 E3 E4 E5]]. intros Hok HG. apply (G_frame s s'); try congruence.
  unfold rates_nonneg. rewrite <- E5. apply HG.
Qed.

Lemma held_ok_append s s' R B :
  hist s' = hist s ++ B -> htxs s' = htxs s ++ R -> rel s' = rel s -> holding s' = holding s ->
  NoDup (hashes s') ->
  Forall (fun r => In (ht_hash r) (map hb_hash B)) R ->
  held_ok s -> held_ok s'.
Proof.
  intros Hh Hx Hr Hho Hnd HR [K K']. split; [|rewrite Hho; exact K']. rewrite Hho. eapply Forall_impl; [|exact K].
  intros x Hxi. pose proof Hxi as (I1 & _).
  apply (held_inv_keep s s' x Hxi); [rewrite Hh, has_batch_app, I1; reflexivity|left; rewrite Hh; apply exec_of_app_old; exact I1
                                    |rewrite Hr; reflexivity|].
  rewrite Hx, rows_of_app. replace (rows_of (e_hash (h_entry x)) R) with (@nil htx); [rewrite app_nil_r; reflexivity|].
    symmetry. apply rows_of_none. eapply Forall_impl; [|exact HR]. cbn. intros r Hin E.
    unfold hashes in Hnd. rewrite Hh, map_app in Hnd.
    apply (nodup_app_disjoint _ _ (e_hash (h_entry x)) Hnd); [|rewrite <- E; exact Hin].
    apply has_batch_In; exact I1.
Qed.

Lemma G_cwrites s s' : cwrites s s' -> NoDup (hashes s') -> G s -> G s'.
Proof.
  intros Hc Hnd (K1 & K2 & K3). pose proof Hc as (R & B & M & P & _).
  destruct (moved_rest _ _ _ _ M) as (E1 & E2 & E3). destruct (moved_history _ _ _ _ M) as (M1 & M2 & _).
  split; [exact (hist_ok_cwrites c s s' Hc Hnd K1)|].
  split; [exact (held_ok_append s s' R B M2 M1 E3 E2 Hnd (paired_hashes _ _ P) K2)|].
  unfold rates_nonneg. rewrite E1. exact K3.
Qed.

Lemma winner_okb_facts ws : forallb winner_okb ws = true -> payouts_fit ws = true /\ Forall (fun w => 0 < w_height w) ws.
Proof.
  intros H. rewrite forallb_forall in H. split.
  - unfold payouts_fit. apply forallb_forall. intros w Hw. specialize (H w Hw). unfold winner_okb in H. apply andb_prop in H as [_ H]. exact H.
  - apply Forall_forall. intros w Hw. specialize (H w Hw). unfold winner_okb in H. apply andb_prop in H as [H _]. lia.
Qed.

Lemma payout_phase_cwrites b g gS s s' :
  0 < b_height b ->
  match g with Some v => verdict_okb v = true | None => True end ->
  match gS with Some v => verdict_okb v = true | None => True end ->
  payout_phase c b g gS s = Done s' -> cwrites s s'.
Proof.
  intros Hh Vg VgS H. apply payout_phase_inv in H as (s1 & s2 & s3 & H1 & H2 & H3 & H4).
  assert (Hw : forall v x y, verdict_okb v = true -> pay_winners x (b_ts b) (v_winners v) = Ok y -> cwrites x y).
  { intros v x y Hv Hp. unfold verdict_okb in Hv. apply andb_prop in Hv as [Hv _].
    destruct (winner_okb_facts _ Hv) as [Hfit Hpos]. exact (pay_winners_cwrites _ _ _ _ Hp Hfit Hpos). }
  transitivity s1; [|transitivity s2; [|transitivity s3]].
  - destruct (_ <? _); [exact (apply_factoid_block_cwrites _ _ _ _ Hh H1)|inversion H1; reflexivity].
  - destruct g as [v|]; [exact (Hw v _ _ Vg H2)|inversion H2; reflexivity].
  - destruct (_ <=? _); [|inversion H3; reflexivity]. destruct gS as [v|]; [exact (Hw v _ _ VgS H3)|inversion H3; reflexivity].
  - destruct (_ && _); [exact (developers_payouts_cwrites c _ _ _ _ Hh H4)|inversion H4; reflexivity].
Qed.

Lemma G_apply_entry h s order e s' :
  0 < h -> entry_clean e = true -> apply_entry c h s order e = Ok s' -> G s -> G s'.
Proof.
  intros Hh Hclean H (K1 & [K2 K2'] & K3). pose proof (apply_entry_writes c (K:=True) _ _ _ _ _ H) as Hw.
  split; [exact (hist_ok_apply_entry c h s order e s' Hh H K1)|].
  split; [|unfold rates_nonneg; rewrite <- (lwrites_rates _ _ _ _ _ Hw); exact K3].
  pose proof (lwrites_RA _ _ _ _ _ Hw) as (_ & Hrel & _). cbn [pA fst snd] in Hrel.
  pose proof H as H0. apply apply_entry_inv in H as [->|(txs & s1 & Ev & Er & Eh & H1 & H2)]; [split; assumption|].
  assert (Hrows0 : rows_of (e_hash e) (htxs s) = []) by (apply rows_have_batch_none; [apply K1|exact Eh]).
  destruct (apply_entry_new c h s order e txs s' Hh H0 Ev Er Eh Hrows0) as (code & A1 & A2 & _ & A4).
  (* the entries already held have a recorded hash, hence another one *)
  assert (Hold : Forall (held_inv s') (holding s)).
  { eapply Forall_impl; [|exact K2]. intros x Hx.
    apply (held_inv_other (e_hash e) s s' x); [|exact A2|rewrite A1; apply only_snoc; reflexivity|exact Hrel|exact Hx].
    intros E. destruct Hx as (I1 & _). rewrite E in I1. unfold hist_has in Eh. unfold has_batch in I1. congruence. }
  apply insert_history_tables in H1 as (_ & _ & _ & _ & A5). unfold held_ok.
  destruct H2 as [[Ec H2]|[Ec H2]].
  - (* into holding: the new row waits with its rows as inserted and status 0 *)
    destruct (A4 Ec) as [-> A6]. destruct (exec_of_snoc_new (hist s) (batch_row e h order 0) Eh) as [Ex Hb]. rewrite <- A1 in Ex, Hb.
    apply insert_holding_ok in H2 as [Ehh E'].
    assert (Hho : holding s' = holding s ++ [{| h_entry := e; h_height := h |}]) by (rewrite E', <- A5; reflexivity).
    rewrite Hho. split.
    + apply Forall_app. split; [exact Hold|]. constructor; [|constructor]. unfold held_inv. cbn [h_entry h_height].
      split; [exact Hb|]. split; [exact Hclean|]. split; [cbn [batch_row hb_hash hb_exec] in Ex; rewrite Ex; intros Hp; inversion Hp|].
      intros _ txs' Hv'. rewrite Ev in Hv'. inversion Hv'; subst txs'. exact A6.
    + rewrite map_app. cbn [map h_entry]. apply nodup_snoc; [exact K2'|].
      intros Hin. apply in_map_iff in Hin as (x & Ex' & Hin). unfold holding_has in Ehh. rewrite A5 in Ehh.
      assert (existsb (fun x0 => e_hash (h_entry x0) =? e_hash e) (holding s) = true); [|congruence].
      apply existsb_exists. exists x. split; [exact Hin|]. apply Z.eqb_eq. exact Ex'.
  - (* applied directly: the holding table is not touched *)
    assert (Hhold : holding s' = holding s).
    { rewrite <- A5. destruct H2 as [H2|[->| ->]]; [|reflexivity..].
      eapply (lwrites_holding True true), apply_batch_writes; [eapply entry_valid_at_ok; exact Ev|exact H2]. }
    rewrite Hhold. split; assumption.
Qed.

Lemma G_apply_tx_block h s es s' :
  0 < h -> forallb entry_clean es = true -> apply_tx_block c h s es = Ok s' -> G s -> G s'.
Proof.
  intros Hh Hcl H HG. rewrite forallb_forall in Hcl. refine (apply_tx_block_invariant c G h es _ s s' HG H).
  intros s0 i e s1 Hin Hp He. exact (G_apply_entry h s0 i e s1 Hh (Hcl e Hin) He Hp).
Qed.

Lemma insert_relation_keeps_replay s a hs' i t cv hs :
  is_replay s hs = true -> is_replay (insert_relation s a hs' i t cv) hs = true.
Proof. apply is_replay_mono. exact (lstep_rel_ext True false true _ _ (l_rel True false s a hs' i t cv)). Qed.

(* after recordBatch the hash is a replay: the first transaction's debit records it, and nothing removes it *)
Lemma record_txs_replay h hs rates0 avgs txs : forall idx s s',
  record_txs c h hs rates0 avgs idx txs s = Ok s' -> is_replay s hs = true \/ txs <> [] -> is_replay s' hs = true.
Proof.
  induction txs as [|t txs IH]; intros idx s s' H Hr; [cbn in H; inversion H; subst; destruct Hr; congruence|].
  apply record_txs_cons_inv in H as (s1 & sk & _ & Hk & Hrest). cbv zeta in Hk. apply (IH _ _ _ Hrest). left.
  set (s3 := set_executed (insert_relation s1 (tx_addr t) hs idx false (is_conversion t)) hs h) in *.
  assert (R3 : is_replay s3 hs = true) by (unfold s3, is_replay; cbn [rel set_executed set_hist]; apply insert_relation_replay).
  destruct (_ && is_peg_request t); [destruct Hk as [_ ->]; exact R3|]. destruct (is_conversion t).
  - destruct Hk as (out & _ & Hadd). apply add_to_balance_ok in Hadd as (_ & _ & ->). exact R3.
  - revert Hk. unfold credit_transfers. apply (fold_res_invariant (fun x => is_replay x hs = true)); [|exact R3].
    intros s0 tr s2 Hp E. destruct (_ =? _); [inversion E; subst; exact Hp|].
    apply rbind_ok in E as (s6 & Ea & E). inversion E; subst. apply add_to_balance_ok in Ea as (_ & _ & ->).
    apply insert_relation_keeps_replay. exact Hp.
Qed.
Lemma record_txs_replayed h hs rates0 avgs t txs idx s s' :
  record_txs c h hs rates0 avgs idx (t :: txs) s = Ok s' -> is_replay s' hs = true.
Proof. intros H. refine (record_txs_replay _ _ _ _ _ _ _ _ H (or_intror _)). discriminate. Qed.

Lemma nodup_map_inj_in {A B} (f : A -> B) (l : list A) x y : NoDup (map f l) -> In x l -> In y l -> f x = f y -> x = y.
Proof.
  induction l as [|z l IH]; intros Hnd Hx Hy E; [contradiction|]. cbn [map] in Hnd. inversion Hnd as [|? ? Hn Hnd']; subst.
  destruct Hx as [->|Hx], Hy as [->|Hy]; auto.
  - exfalso. apply Hn. rewrite E. apply in_map; exact Hy.
  - exfalso. apply Hn. rewrite <- E. apply in_map; exact Hx.
Qed.

Lemma G_apply_held cur rates0 avgs s x s' isp :
  0 < cur -> h_height x <= cur -> In x (holding s) ->
  (forall t, 0 <= rate_of rates0 t) -> (forall t, 0 <= rate_of avgs t) ->
  apply_held c cur rates0 avgs s (h_entry x) (h_height x) = Ok (s', isp) ->
  G s -> G s' /\ isp = false /\ holding s' = holding s.
Proof.
  intros Hcur Hle Hin Hr0 Ha0 H HG. pose proof HG as (K1 & [K2 K2'] & K3).
  pose proof (proj1 (Forall_forall _ _) K2 x Hin) as (I1 & I2 & I3 & I4).
  set (e := h_entry x) in *. set (hh := h_height x) in *. set (X := e_hash e) in *.
  destruct (entry_valid_at c e hh) as [txs|] eqn:Hv.
  2:{ rewrite (invalid_held_inert c cur rates0 avgs s e hh Hv) in H. inversion H; subst. auto. }
  destruct (clean_facts e hh txs I2 Hv) as (Hpc & Hpr & Hnd).
  pose proof (entry_valid_at_mono e hh cur txs Hv Hle) as Hvc.
  destruct (is_replay s X) eqn:Er.
  { rewrite (replayed_held_inert c cur rates0 avgs s e hh txs Hv) in H; [inversion H; subst; auto|rewrite Hpc; apply andb_false_r|eauto|exact Er]. }
  assert (Hexec : exec_of (hist s) X <= 0).
  { destruct (Z.ltb_spec 0 (exec_of (hist s) X)) as [Hp|Hp]; [|exact Hp]. specialize (I3 Hp). discriminate. }
  pose proof (I4 eq_refl txs eq_refl) as Hrows. rewrite <- history_rows_of_pend in Hrows.
  pose proof (convs_fit_nonneg_rates c cur rates0 avgs txs Hr0 Ha0) as Hfit.
  pose proof (apply_held_writes c (K:=True) _ _ _ _ _ _ _ _ H) as Hw.
  pose proof (lwrites_RA _ _ _ _ _ Hw) as (_ & Hrel & _). cbn [pA fst snd] in Hrel.
  pose proof (lwrites_holding _ _ _ _ Hw) as Hhold. pose proof (lwrites_rates _ _ _ _ _ Hw) as Hrates.
  destruct (apply_held_step c cur rates0 avgs s e hh s' isp txs Hcur H Hv (Hnd cur) Hfit Hrows) as (Hisp & D).
  pose proof (hist_ok_held_outcome c cur rates0 avgs s e txs s' D Hrows Hexec K1) as Hok'.
  assert (O : rows_not X (htxs s') = rows_not X (htxs s) /\ only X (hist s) (hist s')).
  { destruct D as [(R3 & R1 & _)|(code & R3 & R2 & _)]; rewrite R3;
      [rewrite R1; split; [reflexivity|apply only_refl]|split; [exact R2|apply only_mark]]. }
  destruct O as [F2 O].
  split; [|split; [exact Hisp|exact Hhold]].
  split; [exact Hok'|]. split; [|unfold rates_nonneg; rewrite <- Hrates; exact K3].
  unfold held_ok. rewrite Hhold. split; [|exact K2'].
  apply Forall_forall. intros y Hy. pose proof (proj1 (Forall_forall _ _) K2 y Hy) as Iy.
  destruct (Z.eq_dec (e_hash (h_entry y)) X) as [E|N]; [|exact (held_inv_other X s s' y N F2 O Hrel Iy)].
  assert (y = x) by (eapply (nodup_map_inj_in (fun x0 => e_hash (h_entry x0))); eauto). subst y.
  destruct D as [(R3 & R1 & _)|(code & R3 & _ & _ & [[Hc R1]|(-> & Hne & Eb)])].
  - apply (held_inv_keep s s' x Iy); fold e; fold X; rewrite ?R3, ?R1; [exact I1|left; reflexivity|exact Hrel|reflexivity].
  - (* rejected: the status does not become positive *)
    apply (held_inv_keep s s' x Iy); fold e; fold X; [rewrite R3, has_batch_mark; exact I1| |exact Hrel|rewrite R1; reflexivity].
    right. rewrite R3, (exec_of_mark_same _ _ _ I1). apply Z.lt_le_incl, Hc.
  - (* executed: from now on the replay check stops it *)
    assert (Rp : is_replay s' X = true).
    { apply apply_batch_applied_is_record in Eb. unfold record_batch in Eb. destruct txs; [congruence|]. eapply record_txs_replayed; exact Eb. }
    fold e. fold X. split; [rewrite R3, has_batch_mark; exact I1|]. split; [exact I2|].
    split; [intros _; exact Rp|]. intros Hn. change (is_replay s' X = false) in Hn. rewrite Rp in Hn. discriminate.
Qed.

Lemma G_set_bank s v : G s -> G (set_bank s v).
Proof. apply G_same; reflexivity. Qed.

Lemma G_record_peg_none h s rates0 avgs bankamt bh s' :
  record_peg_requests c h s [] rates0 avgs bankamt bh = Ok s' -> G s -> G s' /\ holding s' = holding s.
Proof.
  rewrite record_peg_requests_nil. destruct (_ <=? bh).
  - intros H HG. apply update_bank_ok in H as (? & ? & ? & _ & ->). split; [apply G_set_bank; exact HG|reflexivity].
  - intros H HG; inversion H; subst; auto.
Qed.

Lemma in_holding_at cm hh e : In e (holding_at cm hh) -> exists x, In x (holding cm) /\ h_entry x = e /\ h_height x = hh.
Proof.
  unfold holding_at. intros H. apply in_map_iff in H as (x & E & Hx). apply filter_In in Hx as [Hx Hh].
  exists x. split; [exact Hx|]. split; [exact E|]. lia.
Qed.

Lemma G_apply_holding cm cur s rates0 avgs s' :
  0 < cur -> (forall x, In x (holding cm) -> In x (holding s)) ->
  (forall t, 0 <= rate_of rates0 t) -> (forall t, 0 <= rate_of avgs t) ->
  apply_holding c cm cur s rates0 avgs = Ok s' -> G s -> G s'.
Proof.
  intros Hcur Hsub Hr0 Ha0 H HG.
  (* no batch joins the bank's collection, and the holding table stays as the pool shows it *)
  destruct (apply_holding_ind c (fun x pegs => G x /\ pegs = [] /\ holding x = holding s) cm cur rates0 avgs s) with (s' := s')
    as (pegs & Q & _); [| |auto|exact H|exact Q].
  - intros hh e s0 p0 s1 isp Hh Hin (Q1 & -> & Q3) Ha. apply in_holding_at in Hin as (x & Hx & <- & <-).
    assert (Hx0 : In x (holding s0)) by (rewrite Q3; apply Hsub; exact Hx).
    destruct (G_apply_held cur rates0 avgs s0 x s1 isp Hcur (Z.lt_le_incl _ _ (proj2 Hh)) Hx0 Hr0 Ha0 Ha Q1) as (R1 & -> & R3).
    split; [exact R1|]. split; [reflexivity|congruence].
  - intros s0 p0 bankamt bh s1 (Q1 & -> & Q3) Hr. destruct (G_record_peg_none _ _ _ _ _ _ _ Hr Q1) as [R1 R2].
    split; [exact R1|]. split; [reflexivity|congruence].
Qed.

Definition map_nonneg (m : gmap ticker Z) : Prop := forall t, 0 <= rate_of m t.
Lemma map_nonneg_empty : map_nonneg ∅.
Proof. intros t. unfold rate_of. rewrite lookup_empty. cbn. lia. Qed.
Lemma map_nonneg_insert m k v : map_nonneg m -> 0 <= v -> map_nonneg (<[k := v]> m).
Proof.
  intros Hm Hv t. unfold rate_of. destruct (Z.eq_dec k t) as [->|N]; [rewrite lookup_insert; cbn; exact Hv|].
  rewrite lookup_insert_ne by exact N. apply Hm.
Qed.

Lemma avg_of_nonneg P req l : 0 <= avg_of P req l.
Proof.
  unfold avg_of. destruct (_ <? req); [lia|]. destruct l as [|v l0]; [lia|].
  apply Z.div_pos; [apply wrap64_nonneg|]. cbn [length]. lia.
Qed.
Lemma compute_avgs_nonneg cm P h : map_nonneg (compute_avgs cm P h).
Proof.
  unfold compute_avgs. generalize all_tickers as l. induction l as [|t l IH]; cbn [fold_right]; [apply map_nonneg_empty|].
  cbv zeta. destruct (_ =? 0); [exact IH|]. apply map_nonneg_insert; [exact IH|apply avg_of_nonneg].
Qed.
Definition cache_nonneg (mem : avgcache) : Prop := map_nonneg (ac_avgs mem).
Lemma get_averages_nonneg cm P mem k avgs mem' :
  cache_nonneg mem -> get_averages cm P mem k = (avgs, mem') -> map_nonneg avgs /\ cache_nonneg mem'.
Proof.
  unfold get_averages. intros Hm. destruct (_ =? k); intros H; inversion H; subst; [auto|].
  split; [apply compute_avgs_nonneg|unfold cache_nonneg; cbn [ac_avgs]; apply compute_avgs_nonneg].
Qed.

Definition assets_nonneg (l : list (Z * Z)) : Prop := Forall (fun a => 0 <= snd a) l.

Lemma G_insert_rates cm h s assets ph s' :
  insert_rates cm h s assets ph = Ok s' -> assets_nonneg assets -> G s -> G s'.
Proof.
  intros H Ha HG. unfold insert_rates in H. destruct (rates s !! h) eqn:Eh; [discriminate|].
  set (others := filter (fun a : Z * Z => negb (fst a =? PTickerPEG)) assets) in *.
  do 3 (match type of H with (if ?b then _ else _) = _ => destruct b; [discriminate|] end). cbv zeta in H.
  match type of H with (if two63 <=? ?p then _ else _) = _ => set (peg := p) in H end.
  destruct (two63 <=? peg); [discriminate|]. inversion H; subst s'. clear H.
  assert (Hpeg : 0 <= peg).
  { unfold peg. destruct (ph =? 1); [lia|]. destruct (ph =? 2); [destruct (_ =? 0); [lia|apply wrap64_nonneg]|].
    apply (fold_left_invariant (fun acc => 0 <= acc) (fun a : Z * Z => 0 <= snd a)); [|exact Ha|lia].
    intros acc a Hacc Hv. destruct (_ =? PTickerPEG); assumption. }
  assert (Hoth : assets_nonneg others).
  { unfold others, assets_nonneg in *. rewrite Forall_forall in *. intros a Hin. apply filter_In in Hin as [Hin _]. apply Ha; exact Hin. }
  apply (G_frame s); try reflexivity; [exact (hist_ok_frame c s _ eq_refl eq_refl eq_refl (proj1 HG))| |exact HG].
  intros k m t Hk. cbn [rates set_rates] in Hk. destruct (Z.eq_dec k h) as [->|N].
  - rewrite lookup_insert in Hk. inversion Hk; subst m. apply map_nonneg_insert; [|exact Hpeg].
    apply (fold_left_invariant map_nonneg (fun a : Z * Z => 0 <= snd a)); [|exact Hoth|apply map_nonneg_empty].
    intros m0 a Hm0 Hv. destruct (valid_ticker _); [apply map_nonneg_insert; assumption|exact Hm0].
  - rewrite lookup_insert_ne in Hk by auto. destruct HG as (_ & _ & K3). eapply K3; exact Hk.
Qed.

Lemma band_filter_nonneg h v0 o : forall sp l,
  assets_nonneg o -> assets_nonneg sp -> band_filter c h v0 o sp = RSel l -> assets_nonneg l.
Proof.
  induction o as [|[on ov] o IH]; intros sp l Ho Hs H; cbn [band_filter] in H; [inversion H; constructor|].
  destruct sp as [|[sn sv] sp]; [inversion H; constructor|].
  inversion Ho as [|? ? Hov Ho']; subst. inversion Hs as [|? ? Hsv Hs']; subst. cbn [snd] in *.
  destruct (on =? sn); [|eapply IH; eauto].
  destruct (in_band _ ov sv).
  - destruct (band_filter c h v0 o sp) as [l0|] eqn:E; [|discriminate]. inversion H; subst.
    constructor; [exact Hov|eapply IH; eauto].
  - destruct (_ && _); [|discriminate].
    destruct (band_filter c h v0 o sp) as [l0|] eqn:E; [|discriminate]. inversion H; subst.
    constructor; [cbn; lia|eapply IH; eauto].
Qed.
Lemma select_rates_nonneg h o sp l :
  assets_nonneg o -> assets_nonneg sp -> select_rates c h o sp = RSel l -> assets_nonneg l.
Proof.
  intros Ho Hs H. unfold select_rates in H. destruct o as [|o0 o']; destruct sp as [|s0 s''].
  - discriminate.
  - inversion H; subst; exact Hs.
  - inversion H; subst; exact Ho.
  - destruct (Nat.eqb _ _); [|discriminate]. exact (band_filter_nonneg _ _ _ _ _ Ho Hs H).
Qed.

Lemma first_assets_nonneg v : match v with Some v' => verdict_okb v' = true | None => True end -> assets_nonneg (first_assets v).
Proof.
  destruct v as [v|]; [|intros _; constructor]. intros H. unfold first_assets. destruct (v_winners v); [constructor|].
  unfold verdict_okb in H. apply andb_prop in H as [_ H]. rewrite forallb_forall in H.
  apply Forall_forall. intros a Ha. specialize (H a Ha). lia.
Qed.
Lemma grade_opr_ok cm b v : block_okb b = true -> grade_opr c cm b = Done (Some v) -> verdict_okb v = true.
Proof.
  unfold block_okb, grade_opr. intros Hb H. destruct (b_opr b) as [oi|]; [|discriminate].
  apply andb_prop in Hb as [Hb _]. apply andb_prop in Hb as [_ Hb]. rewrite forallb_forall in Hb.
  destruct (find _ (oi_alts oi)) as [[k [v0|]]|] eqn:E; try discriminate. inversion H; subst.
  apply find_some in E as [E _]. exact (Hb _ E).
Qed.
Lemma grade_spr_ok cm b v : block_okb b = true -> grade_spr c cm b = Done (Some v) -> verdict_okb v = true.
Proof.
  unfold block_okb, grade_spr. intros Hb H. destruct (b_spr b) as [si|]; [|discriminate].
  apply andb_prop in Hb as [_ Hb]. rewrite forallb_forall in Hb. cbv zeta in H.
  destruct (find _ (si_alts si)) as [[k [v0|]]|] eqn:E; try discriminate. inversion H; subst.
  apply find_some in E as [E _]. exact (Hb _ E).
Qed.

Section Block.
Variable cm : db.
(* what is carried through the block's transaction: the held batches the pool shows are still in the pending
   holding table, and the invariant holds as soon as the batch-row hashes of the state are distinct.  Hashes are
   only appended, so their distinctness in the final table gives it in every earlier one: it is asked once, at
   the end, and not of the intermediate states *)
Definition Wst (s : db) : Prop :=
  (forall x, In x (holding cm) -> In x (holding s)) /\ (NoDup (hashes s) -> G s).

Lemma W_step s s' :
  RA (pA s) (pA s') ->
  (G s -> NoDup (hashes s') -> (forall x, In x (holding cm) -> In x (holding s)) -> G s') ->
  Wst s -> Wst s'.
Proof.
  intros (Hp & _ & Hh) Hg [W1 W2]. cbn [pA fst snd] in Hp, Hh. split.
  - intros x Hx. destruct Hh as [k ->]. apply in_or_app. left. apply W1; exact Hx.
  - intros Hnd. apply Hg; [|exact Hnd|exact W1]. apply W2. destruct Hp as [k Hk]. rewrite Hk in Hnd. exact (nodup_app_l _ _ Hnd).
Qed.
Lemma W_same s s' :
  hist s' = hist s -> htxs s' = htxs s -> rel s' = rel s -> holding s' = holding s -> rates s' = rates s -> bal s' = bal s ->
  Wst s -> Wst s'.
Proof.
  intros H1 H2 H3 H4 H5 H6. apply W_step; [apply RA_same; unfold hashes; congruence|].
  intros HG _ _. revert HG. apply G_same; try assumption. intros a t _. rewrite H6. reflexivity.
Qed.

Lemma W_writes K rw ex s s' :
  lwrites K rw ex s s' ->
  (G s -> NoDup (hashes s') -> (forall x, In x (holding cm) -> In x (holding s)) -> G s') ->
  Wst s -> Wst s'.
Proof. intros H. apply W_step. exact (lwrites_RA _ _ _ _ _ H). Qed.
Lemma W_cwrites s s' : cwrites s s' -> Wst s -> Wst s'.
Proof.
  intros Hc. apply W_step; [|intros HG Hnd _; exact (G_cwrites s s' Hc Hnd HG)]. destruct Hc as (R & B & M & _).
  destruct (moved_rest _ _ _ _ M) as (_ & Eh & Er). destruct (moved_history _ _ _ _ M) as (_ & Eb & _).
  unfold RA, pA, hashes. cbn [fst snd]. rewrite Eb, map_app, Eh, Er. repeat split; try reflexivity. eexists; reflexivity.
Qed.

Lemma block_okb_facts b :
  block_okb b = true ->
  0 < b_height b /\ (forall es, b_tx b = Some es -> forallb entry_clean es = true).
Proof.
  unfold block_okb. intros H. apply andb_prop in H as [H _]. apply andb_prop in H as [H _]. apply andb_prop in H as [H1 H2].
  split; [lia|]. intros es E. rewrite E in H2. exact H2.
Qed.
Lemma W_adjust h s s' : adjust_phase c cm h s = Done s' -> Wst s -> Wst s'.
Proof.
  intros H HW. apply adjust_phase_inv in H as (s1 & H1 & H).
  assert (E1 : Wst s1).
  { destruct (h =? c_V204EnhanceActivation c); [|inversion H1; subst; exact HW].
    pose proof (mint_tokens_writes True _ _ H1) as Hw. revert HW. apply (W_writes _ _ _ _ _ Hw). intros HG _ _.
    exact (G_bal_only _ _ _ Hw (hist_ok_mint_tokens c _ _ H1 (proj1 HG)) HG). }
  destruct (h =? c_V204BurnMintedTokenActivation c); [|inversion H; subst; exact E1].
  pose proof (nullify_minted_writes cm _ _ H) as Hw. revert E1. apply (W_writes _ _ _ _ _ Hw). intros HG _ _.
  exact (G_bal_only _ _ _ Hw (hist_ok_nullify_minted c _ _ _ H (proj1 HG)) HG).
Qed.

Lemma W_insert_grade h s v s' : insert_grade h s v = Ok s' -> Wst s -> Wst s'.
Proof. intros Hi. apply insert_grade_shape in Hi as (? & ? & ->). apply W_same; reflexivity. Qed.
Lemma W_insert_rates h s a ph s' : insert_rates cm h s a ph = Ok s' -> assets_nonneg a -> Wst s -> Wst s'.
Proof.
  intros Hi Ha. pose proof Hi as Hi'. apply insert_rates_shape in Hi' as (_ & m & -> & _).
  apply W_step; [apply RA_same; reflexivity|]. intros HG _ _. exact (G_insert_rates _ _ _ _ _ _ Hi Ha HG).
Qed.

Lemma rate_choice_nonneg h g gS l ph :
  match g with Some v => verdict_okb v = true | None => True end ->
  match gS with Some v => verdict_okb v = true | None => True end ->
  rate_choice c h g gS = Some (l, ph) -> assets_nonneg l.
Proof.
  intros Vg VgS. unfold rate_choice. pose proof (first_assets_nonneg g Vg) as Fo. pose proof (first_assets_nonneg gS VgS) as Fs.
  destruct (h <? _).
  - destruct g as [v|]; [|discriminate]. unfold first_assets in Fo. destruct (v_winners v); [discriminate|].
    intros E; inversion E; subst. exact Fo.
  - destruct (first_assets g), (first_assets gS); [discriminate|..];
      (destruct (select_rates c h _ _) eqn:Esel; [|discriminate]; intros E; inversion E; subst;
       exact (select_rates_nonneg _ _ _ _ Fo Fs Esel)).
Qed.
Lemma W_rate b g gS s s' ir en :
  match g with Some v => verdict_okb v = true | None => True end ->
  match gS with Some v => verdict_okb v = true | None => True end ->
  rate_phase c cm b g gS s = Done (s', ir, en) -> Wst s -> Wst s'.
Proof.
  intros Vg VgS H HW. apply rate_phase_inv in H as (s1 & H1 & H2).
  assert (E1 : Wst s1) by (destruct g; [exact (W_insert_grade _ _ _ _ H1 HW)|inversion H1; subst; exact HW]).
  destruct (rate_choice c (b_height b) g gS) as [[l ph]|] eqn:Ec; [|destruct H2 as [-> _]; exact E1].
  destruct H2 as (H2 & _). exact (W_insert_rates _ _ _ _ _ H2 (rate_choice_nonneg _ _ _ _ _ Vg VgS Ec) E1).
Qed.

(* the rate map handed to the holding pass is a row of pn_rate (or empty) *)
Lemma W_snapshot_phase h ts s s' rates1 :
  0 < h -> snapshot_phase c h ts s = Done (s', rates1) -> Wst s ->
  Wst s' /\ exists k, rates1 = default ∅ (rates s' !! k).
Proof.
  intros Hh H HW. apply snapshot_phase_inv in H as [(k & ->) [->|H1]]; [eauto|].
  pose proof (snapshot_payouts_writes c True _ _ _ _ _ H1) as Hw.
  split; [apply (W_cwrites _ _ (snapshot_payouts_cwrites c _ _ _ _ _ Hh H1)); revert HW; apply W_same; reflexivity|].
  rewrite <- (lwrites_rates _ _ _ _ _ Hw). eauto.
Qed.

Lemma W_holding_phase mem h ir rates1 s s' mem' :
  0 < h -> cache_nonneg mem -> (exists k, rates1 = default ∅ (rates s !! k)) ->
  holding_phase c cm mem h ir rates1 s = Done (s', mem') -> Wst s -> Wst s' /\ cache_nonneg mem'.
Proof.
  intros Hh Hmem (k & ->) H HW. destruct ir; [|unfold holding_phase in H; inversion H; subst; auto].
  apply holding_phase_rated in H as (s1 & H1 & H2 & ->).
  assert (E1 : Wst s1 /\ rates s1 = rates s).
  { destruct (_ && _); [|inversion H1; subst; auto]. apply insert_bank_ok in H1 as [_ ->]. split; [revert HW; apply W_same|]; reflexivity. }
  destruct E1 as [E1 Er]. destruct (get_averages _ _ _ _) as [avgs m'] eqn:Eg. cbn [fst snd] in *.
  destruct (get_averages_nonneg _ _ _ _ _ _ Hmem Eg) as [Havg Hm']. split; [|exact Hm'].
  revert E1. apply (W_writes _ _ _ _ _ (apply_holding_writes c (K:=True) _ _ _ _ _ _ H2)). intros HG _ Hsub.
  refine (G_apply_holding cm _ _ _ _ _ Hh Hsub _ Havg H2 HG).
  destruct HG as (_ & _ & K3). intros t. destruct (rates s !! k) eqn:Ek; cbn [default from_option id]; [|apply map_nonneg_empty].
  rewrite <- Er in Ek. eapply K3; exact Ek.
Qed.

Lemma W_tx_phase mem b ir s s' mem' :
  0 < b_height b -> (forall es, b_tx b = Some es -> forallb entry_clean es = true) -> cache_nonneg mem ->
  tx_phase c cm mem b ir s = Done (s', mem') -> Wst s -> Wst s' /\ cache_nonneg mem'.
Proof.
  intros Hh Hes Hmem H HW. apply tx_phase_inv in H as [(_ & -> & ->)|(s1 & rates1 & s2 & Hs & Hd & H3)]; [auto|].
  destruct (W_snapshot_phase _ _ _ _ _ Hh Hs HW) as [E1 Hr1].
  destruct (W_holding_phase _ _ _ _ _ _ _ Hh Hmem Hr1 Hd E1) as [E2 Hm2]. split; [|exact Hm2].
  destruct (b_tx b) as [es|] eqn:Etx; [|inversion H3; subst; exact E2].
  revert E2. apply (W_writes _ _ _ _ _ (apply_tx_block_writes c (K:=True) _ _ _ _ H3)).
  intros HG _ _. exact (G_apply_tx_block _ _ _ _ Hh (Hes es eq_refl) H3 HG).
Qed.

Lemma sync_block_W mem b s s' mem' :
  block_okb b = true -> cache_nonneg mem -> Wst s ->
  sync_block c cm mem b s = Done (s', mem') -> Wst s' /\ cache_nonneg mem'.
Proof.
  intros Hb Hmem HW H. destruct (block_okb_facts b Hb) as [Hh Hes].
  apply sync_block_inv in H as (s2 & g & gS & s3 & ir & en & H2 & Hg & HgS & H3 & H).
  assert (Vg : match g with Some v => verdict_okb v = true | None => True end).
  { destruct g as [v|]; [|exact I]. eapply grade_opr_ok; eauto. }
  assert (VgS : match gS with Some v => verdict_okb v = true | None => True end).
  { destruct gS as [v|]; [|exact I]. unfold spr_verdict in HgS. destruct (_ <=? _); [|discriminate]. eapply grade_spr_ok; eauto. }
  pose proof (W_rate _ _ _ _ _ _ _ Vg VgS H3 (W_adjust _ _ _ H2 HW)) as E3.
  destruct en; [destruct H as [-> ->]; auto|]. destruct H as (s4 & H4 & H5).
  destruct (W_tx_phase _ _ _ _ _ _ Hh Hes Hmem H4 E3) as [E4 Hm]. split; [|exact Hm].
  exact (W_cwrites _ _ (payout_phase_cwrites _ _ _ _ _ Hh Vg VgS H5) E4).
Qed.

Lemma W_nullify_burn h ts s : 0 < h -> Wst s -> Wst (nullify_burn c cm h ts s).
Proof.
  intros Hh. apply (nullify_burn_ind c (fun x y => Wst x -> Wst y)); cbv zeta.
  - intros s0 t s1 H. pose proof (sub_ignoring_writes cm _ _ _ _ H) as Hw. apply (W_writes _ _ _ _ _ Hw). intros HG _ _.
    refine (G_bal_only _ _ _ Hw (sub_ignoring_special c _ _ _ _ _ _ H (proj1 HG)) HG).
    destruct (_ <=? h); [apply special_burn|apply special_old_burn].
  - intros s0 j s1 H. apply W_cwrites. eexists [], [_]. split; [exact (moved_hbatch _ _ _ H)|split; constructor].
  - intros s0 i j t s1 s2 H1 H2. apply W_cwrites. eexists [_], [_]. split; [|split].
    + apply (moved_hbatch_htx _ _ _ _ _ _ H1 H2). intros burn a' t'.
      rewrite row_effect_coinbase, effect_on_cons, effect_on_nil. cbn [fst snd]. destruct (_ && _); reflexivity.
    + constructor; [|constructor]. eexists. split; [left; reflexivity|]. split; [reflexivity|exact Hh].
    + constructor; [left; reflexivity|constructor].
Qed.
End Block.

Theorem step_block_G cm mem b s' mem' :
  block_okb b = true -> cache_nonneg mem ->
  (NoDup (hashes cm) -> G cm) ->
  step_block c cm mem b = Done (s', mem') ->
  (NoDup (hashes s') -> G s') /\ cache_nonneg mem'.
Proof.
  intros Hb Hmem HQ H. apply step_block_inv in H as (s1 & H1 & H2). pose proof (proj1 (block_okb_facts _ Hb)) as Hh.
  assert (Wb : Wst cm (pre_burn c cm b)).
  { assert (W0 : Wst cm cm) by (split; [auto|exact HQ]). unfold pre_burn. destruct (_ =? _), (_ =? _); auto using W_nullify_burn. }
  destruct (sync_block_W cm mem b _ s1 mem' Hb Hmem Wb H1) as [[_ W1] Hm1].
  apply insert_synced_shape in H2 as (_ & ->). split; [|exact Hm1].
  intros Hnd. specialize (W1 Hnd). revert W1. apply G_same; reflexivity.
Qed.
End Inv.

Lemma G_genesis c : G c genesis.
Proof.
  split; [apply hist_ok_genesis|]. split; [split; constructor|].
  intros k m t H. unfold genesis, empty_db in H. cbn [rates] in H. rewrite lookup_empty in H. discriminate.
Qed.

(* one block: if the invariant holds for the committed database whenever its batch-row hashes are distinct, then
   after the block — when the batch-row hashes of the result are distinct (H1) — every cell outside the special
   addresses is the sum of what the executed history rows stand for *)
Theorem step_block_accounts c cm mem b s' mem' :
  block_okb b = true ->                        (* H2, H4: static conditions on the block's inputs *)
  cache_nonneg mem ->
  (NoDup (hashes cm) -> G c cm) ->
  step_block c cm mem b = Done (s', mem') ->
  NoDup (map hb_hash (hist s')) ->             (* H1, on the resulting state *)
  accounts c s' /\ G c s' /\ cache_nonneg mem'.
Proof.
  intros Hb Hmem HQ H Hnd. destruct (step_block_G c cm mem b s' mem' Hb Hmem HQ H) as (HG & Hm).
  specialize (HG Hnd). split; [apply HG|]. split; [exact HG|exact Hm].
Qed.

Lemma replay_G c bs : forall cm mem s m,
  forallb block_okb bs = true -> cache_nonneg mem -> (NoDup (hashes cm) -> G c cm) ->
  replay c cm mem bs = Done (s, m) -> (NoDup (hashes s) -> G c s).
Proof.
  induction bs as [|b bs IH]; intros cm mem s m Hok Hmem HQ H.
  - inversion H; subst. exact HQ.
  - cbn [forallb] in Hok. apply andb_prop in Hok as [Hb Hbs].
    apply replay_cons in H as (s1 & m1 & H1 & H2).
    destruct (step_block_G c cm mem b s1 m1 Hb Hmem HQ H1) as (HG1 & Hm1).
    exact (IH s1 m1 s m Hbs Hm1 HG1 H2).
Qed.

Theorem replay_accounts c bs s m :
  forallb block_okb bs = true ->               (* H2, H4 for every block (heights positive, no conversion into PEG,
                                                  sane grader verdicts) *)
  replay c genesis empty_cache bs = Done (s, m) ->
  NoDup (map hb_hash (hist s)) ->              (* H1: no entry hash twice in pn_history_txbatch of the final state *)
  accounts c s.
Proof.
  intros Hok H Hnd.
  refine (proj1 (proj1 (replay_G c bs genesis empty_cache s m Hok _ (fun _ => G_genesis c) H Hnd))).
  unfold cache_nonneg. cbn [ac_avgs empty_cache]. apply map_nonneg_empty.
Qed.

Example replay_accounts_hyps :
  match replay ex_cfg genesis empty_cache ex_chain with
  | Done (s, _) => forallb block_okb ex_chain = true /\ NoDup (map hb_hash (hist s)) /\ map hb_hash (hist s) = [501; 601; 602; 603; 9104]
  | _ => False
  end.
Proof.
  vm_compute. split; [reflexivity|]. split; [|reflexivity].
  repeat (constructor; [intros HH; cbn in HH; intuition discriminate|]). constructor.
Qed.
Example replay_accounts_example :
  exists s m, replay ex_cfg genesis empty_cache ex_chain = Done (s, m) /\ accounts ex_cfg s /\
              get_bal (bal s) alice PTickerUSD = 80 /\ hist_sum ex_cfg s alice PTickerUSD = 80.
Proof.
  pose proof replay_accounts_hyps as Hh.
  destruct (replay ex_cfg genesis empty_cache ex_chain) as [[s m]| | |] eqn:E; try contradiction.
  destruct Hh as (H1 & H2 & _). exists s, m. split; [reflexivity|].
  pose proof (replay_accounts ex_cfg ex_chain s m H1 E H2) as A. split; [exact A|].
  assert (B : get_bal (bal s) alice PTickerUSD = 80).
  { assert (Q : match replay ex_cfg genesis empty_cache ex_chain with Done (s0, _) => get_bal (bal s0) alice PTickerUSD = 80 | _ => False end)
      by (vm_compute; reflexivity). rewrite E in Q. exact Q. }
  split; [exact B|]. rewrite <- (A alice PTickerUSD eq_refl). exact B.
Qed.

Print Assumptions step_block_accounts.
Print Assumptions replay_accounts.

