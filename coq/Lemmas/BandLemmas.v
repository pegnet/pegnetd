(* Lemmas/BandLemmas.v — the binary64 tolerance band of Model/Band.v against the real-number rule
   (property C12).  Primitive floats are linked to Flocq's binary_float by Flocq.IEEE754.PrimFloat. *)
From Coq Require Import Reals Floats Uint63 Lra.
From Flocq Require Import Core Relative IEEE754.BinarySingleNaN IEEE754.PrimFloat.
From Model Require Import Base Band.
Open Scope Z_scope.

Definition FR (f : Floats.PrimFloat.float) : R := B2R (Prim2B f).
Definition ffin (f : Floats.PrimFloat.float) : bool := is_finite (Prim2B f).
Definition rnd (x : R) : R := round radix2 (fexp prec emax) ZnearestE x.
(* unit roundoff 2^-53 *)
Definition u53 : R := (/ 9007199254740992)%R.

Lemma fexp_FLT : fexp prec emax = FLT_exp (-1074) 53.
Proof. reflexivity. Qed.

Lemma rnd_abs_le_bpow : forall z e, -1022 <= e -> (Rabs z <= bpow radix2 e)%R ->
  (Rabs (rnd z) <= bpow radix2 e)%R.
Proof.
  intros z e He Hz. unfold rnd. apply abs_round_le_generic; [apply fexp_correct; reflexivity| auto with typeclass_instances | | exact Hz].
  apply generic_format_bpow. unfold fexp, SpecFloat.emin, prec, emax. lia.
Qed.

Lemma rnd_no_overflow : forall z e, -1022 <= e < 1024 -> (Rabs z <= bpow radix2 e)%R ->
  Rlt_bool (Rabs (rnd z)) (bpow radix2 emax) = true.
Proof.
  intros z e He Hz. apply Rlt_bool_true. eapply Rle_lt_trans; [apply (rnd_abs_le_bpow z e); [lia|exact Hz]|].
  apply bpow_lt. change emax with 1024. lia.
Qed.

Lemma rnd_rel : forall z, (z = 0 \/ / 4 <= Rabs z)%R ->
  exists d, (Rabs d <= u53)%R /\ rnd z = (z * (1 + d))%R.
Proof.
  intros z [Hz|Hz].
  - exists 0%R. split; [rewrite Rabs_R0; unfold u53; lra|]. subst z. unfold rnd. rewrite round_0; [lra|auto with typeclass_instances].
  - unfold rnd. rewrite fexp_FLT.
    destruct (relative_error_N_FLT_ex radix2 (-1074) 53 ltac:(reflexivity) (fun x => negb (Z.even x)) z) as [d [Hd Hr]].
    + eapply Rle_trans; [|exact Hz]. change (/4)%R with (/ (2 * 2))%R.
      replace (/ (2*2))%R with (bpow radix2 (-2)). apply bpow_le; lia. simpl. lra.
    + exists d. split; [|exact Hr]. eapply Rle_trans; [exact Hd|]. unfold u53. simpl. lra.
Qed.

Lemma mul_R : forall x y e, ffin x = true -> ffin y = true -> -1022 <= e < 1024 ->
  (Rabs (FR x * FR y) <= bpow radix2 e)%R ->
  FR (x * y) = rnd (FR x * FR y) /\ ffin (x * y) = true.
Proof.
  intros x y e Hx Hy He Hb. unfold FR, ffin in *. rewrite mul_equiv.
  generalize (Bmult_correct prec emax Hprec Hmax mode_NE (Prim2B x) (Prim2B y)).
  change (round radix2 (fexp prec emax) (round_mode mode_NE)) with rnd.
  rewrite (rnd_no_overflow _ e He Hb). intros [H1 [H2 _]]. split; [exact H1|]. rewrite H2, Hx, Hy. reflexivity.
Qed.

Lemma mul_rel : forall x y e, ffin x = true -> ffin y = true -> -1022 <= e < 1024 ->
  (/ 4 <= FR x * FR y <= bpow radix2 e)%R ->
  ffin (x * y) = true /\ exists d, (Rabs d <= u53)%R /\ FR (x * y) = (FR x * FR y * (1 + d))%R.
Proof.
  intros x y e Fx Fy He [Hlo Hhi].
  assert (Hp : Rabs (FR x * FR y) = (FR x * FR y)%R) by (apply Rabs_pos_eq; lra).
  destruct (mul_R x y e Fx Fy He) as [Hm Fm]; [rewrite Hp; exact Hhi|]. split; [exact Fm|].
  destruct (rnd_rel (FR x * FR y)%R) as [d [Bd Hr]]; [right; rewrite Hp; exact Hlo|].
  exists d. split; [exact Bd|]. rewrite Hm. exact Hr.
Qed.

Lemma leb_R : forall x y, ffin x = true -> ffin y = true -> Floats.PrimFloat.leb x y = Rle_bool (FR x) (FR y).
Proof. intros x y Hx Hy. rewrite leb_equiv. apply Bleb_correct; assumption. Qed.

Lemma of_uint63_R : forall x, 0 <= x < two63 ->
  FR (Floats.PrimFloat.of_uint63 (Uint63.of_Z x)) = rnd (IZR x) /\ ffin (Floats.PrimFloat.of_uint63 (Uint63.of_Z x)) = true.
Proof.
  intros x Hx. unfold FR, ffin. rewrite of_int63_equiv.
  assert (Hto : Uint63.to_Z (Uint63.of_Z x) = x).
  { rewrite Uint63.of_Z_spec. apply Z.mod_small. unfold two63 in Hx. change wB with 9223372036854775808. lia. }
  rewrite Hto.
  generalize (binary_normalize_correct prec emax Hprec Hmax mode_NE x 0 false).
  cbv zeta. change (round radix2 (fexp prec emax) (round_mode mode_NE)) with rnd.
  assert (HF : F2R (Float radix2 x 0) = IZR x). { unfold F2R. simpl. lra. }
  rewrite HF. rewrite (rnd_no_overflow _ 63).
  - intros [H1 [H2 _]]. split; assumption.
  - lia.
  - rewrite Rabs_pos_eq; [|apply IZR_le; lia]. rewrite <- IZR_Zpower by lia. apply IZR_le. unfold two63 in Hx. change (radix2 ^ 63) with 9223372036854775808. lia.
Qed.

Lemma rnd_F2R : forall m e, Z.abs m < 2 ^ 53 -> -1074 <= e -> rnd (F2R (Float radix2 m e)) = F2R (Float radix2 m e).
Proof.
  intros m e Hm He. unfold rnd. apply round_generic; [auto with typeclass_instances|].
  rewrite fexp_FLT. apply generic_format_FLT. exact (FLT_spec radix2 (-1074) 53 _ (Float radix2 m e) eq_refl Hm He).
Qed.

Lemma rnd_int_exact : forall x, Z.abs x < 2 ^ 53 -> rnd (IZR x) = IZR x.
Proof.
  intros x Hx. replace (IZR x) with (F2R (Float radix2 x 0)) by (unfold F2R; simpl; lra).
  apply rnd_F2R; [exact Hx|lia].
Qed.

Lemma f_of_Z_low : forall x, 0 <= x < two63 -> FR (f_of_Z x) = rnd (IZR x) /\ ffin (f_of_Z x) = true.
Proof.
  intros x Hx. unfold f_of_Z. assert (Hlt : x <? two63 = true) by (apply Z.ltb_lt; lia).
  rewrite Hlt. apply of_uint63_R. exact Hx.
Qed.

Theorem f_of_Z_exact : forall x, 0 <= x < 2 ^ 53 -> FR (f_of_Z x) = IZR x /\ ffin (f_of_Z x) = true.
Proof.
  intros x Hx. destruct (f_of_Z_low x) as [H1 H2]; [unfold two63; lia|]. split; [|exact H2].
  rewrite H1. apply rnd_int_exact. lia.
Qed.

Lemma rnd_double : forall z, rnd (rnd z * 2) = (rnd z * 2)%R.
Proof.
  intros z.
  assert (Hg : generic_format radix2 (fexp prec emax) (rnd z)).
  { unfold rnd. apply generic_format_round; [apply fexp_correct; reflexivity|auto with typeclass_instances]. }
  rewrite fexp_FLT in Hg. apply FLT_format_generic in Hg; [|reflexivity].
  destruct Hg as [[m e] Hv Hm He]. simpl in Hm, He. rewrite Hv.
  replace (F2R (Float radix2 m e) * 2)%R with (F2R (Float radix2 m (e + 1)))
    by (unfold F2R; cbn [Fnum Fexp]; rewrite bpow_plus; change (bpow radix2 1) with 2%R; lra).
  apply rnd_F2R; [exact Hm|lia].
Qed.

(* the low bit folded into the sticky bit *)
Lemma lor_sticky : forall a b, 0 <= a -> 0 <= b <= 1 ->
  Z.lor a b = a \/ (Z.lor a b = a + 1 /\ b = 1 /\ exists k, a = 2 * k).
Proof.
  intros a b Ha Hb. assert (Hb' : b = 0 \/ b = 1) by lia. destruct Hb' as [-> | ->].
  - left. apply Z.lor_0_r.
  - destruct a as [|p|p]; [right; split; [reflexivity|split;[reflexivity|exists 0; reflexivity]]| |lia].
    destruct p as [q|q|].
    + left. reflexivity.
    + right. split; [change (Z.lor (Z.pos q~0) 1) with (Z.pos q~1); lia|]. split; [reflexivity|]. exists (Z.pos q). lia.
    + left. reflexivity.
Qed.

Lemma FR_const : forall c s m e, Prim2SF c = S754_finite s m e ->
  FR c = F2R (Float radix2 (cond_Zopp s (Zpos m)) e) /\ ffin c = true.
Proof.
  intros c s m e H. unfold FR, ffin, Prim2B. rewrite B2R_SF2B, is_finite_SF2B.
  generalize (Prim2SF_valid c). rewrite H. intros _. split; reflexivity.
Qed.

Ltac bpow_const := unfold bpow; repeat match goal with |- context [Zpower_pos ?r ?p] =>
  let v := eval vm_compute in (Zpower_pos r p) in change (Zpower_pos r p) with v end.

Ltac const_val m e :=
  match goal with |- FR ?c = _ /\ ffin ?c = true =>
    let H1 := fresh "H1" in let H2 := fresh "H2" in
    destruct (FR_const c false m e ltac:(vm_compute; reflexivity)) as [H1 H2];
    split; [|exact H2]; rewrite H1; unfold F2R; cbn [Fnum Fexp cond_Zopp]; bpow_const; lra
  end.

Lemma FR_two : FR 2%float = 2%R /\ ffin 2%float = true.
Proof. const_val 4503599627370496%positive (-51). Qed.

(* 2^-53 + 2^-62 : one rounding, plus the folded low bit above 2^63 *)
Definition e64 : R := (u53 + / 4611686018427387904)%R.

Lemma f_of_Z_high : forall x, two63 <= x < two64 ->
  let y := Z.lor (x / 2) (x mod 2) in
  0 <= y < two63 /\ Z.abs (2 * y - x) <= 1 /\
  FR (f_of_Z x) = (rnd (IZR y) * 2)%R /\ ffin (f_of_Z x) = true.
Proof.
  intros x Hx y. unfold two63, two64 in Hx.
  assert (Hy : 0 <= y < two63 /\ Z.abs (2 * y - x) <= 1).
  { unfold two63. subst y. assert (Hd : x = 2 * (x / 2) + x mod 2) by (apply Z.div_mod; lia).
    assert (Hm : 0 <= x mod 2 < 2) by (apply Z.mod_pos_bound; lia).
    destruct (lor_sticky (x / 2) (x mod 2)) as [He | [He [Hb [k Hk]]]]; [lia|lia| |]; rewrite He; lia. }
  destruct Hy as [Hy1 Hy2]. split; [exact Hy1|]. split; [exact Hy2|].
  unfold f_of_Z. assert (Hlt : x <? two63 = false) by (apply Z.ltb_ge; unfold two63; lia).
  rewrite Hlt. fold y. destruct (of_uint63_R y Hy1) as [Hv Hf]. destruct FR_two as [H2 F2].
  destruct (mul_R (Floats.PrimFloat.of_uint63 (Uint63.of_Z y)) 2%float 64 Hf F2 ltac:(lia)) as [Hm1 Hm2].
  - rewrite Hv, H2. rewrite Rabs_mult. rewrite (Rabs_pos_eq 2) by lra.
    change 64 with (63 + 1). rewrite bpow_plus. change (bpow radix2 1) with 2%R.
    apply Rmult_le_compat_r; [lra|]. apply rnd_abs_le_bpow; [lia|].
    rewrite Rabs_pos_eq; [|apply IZR_le; lia]. rewrite <- IZR_Zpower by lia. apply IZR_le.
    unfold two63 in Hy1. change (radix2 ^ 63) with 9223372036854775808. lia.
  - split; [|exact Hm2]. rewrite Hm1, Hv, H2. apply rnd_double.
Qed.

Lemma u53_pos : (0 < u53 < / 1000)%R.
Proof. unfold u53. lra. Qed.

(* y (1 + d), doubled, read as x (1 + d') when 2 y is within 1 of x >= 2^63: the folded low bit
   costs 2^-62 *)
Lemma fold_rel : forall X Y d, (9223372036854775808 <= X)%R -> (-1 <= 2 * Y - X <= 1)%R ->
  (Rabs d <= u53)%R -> exists d', (Rabs d' <= e64)%R /\ (Y * (1 + d) * 2 = X * (1 + d'))%R.
Proof.
  intros X Y d HX Hdl Hd. exists ((Y * (1 + d) * 2 - X) / X)%R. split; [|field; lra].
  pose proof u53_pos as Hu. apply Rabs_le_inv in Hd.
  replace ((Y * (1 + d) * 2 - X) / X)%R with (d + (2 * Y - X) * (1 + d) / X)%R by (field; lra).
  eapply Rle_trans; [apply Rabs_triang|]. unfold e64. apply Rplus_le_compat; [apply Rabs_le; lra|].
  unfold Rdiv. rewrite Rabs_mult. rewrite (Rabs_pos_eq (/ X)); [|apply Rlt_le, Rinv_0_lt_compat; lra].
  apply Rle_trans with (2 * / X)%R.
  - apply Rmult_le_compat_r; [apply Rlt_le, Rinv_0_lt_compat; lra|]. rewrite Rabs_mult. replace 2%R with (1 * 2)%R by lra.
    apply Rmult_le_compat; try apply Rabs_pos; apply Rabs_le; lra.
  - apply Rle_trans with (2 * / 9223372036854775808)%R; [|lra].
    apply Rmult_le_compat_l; [lra|]. apply Rinv_le_contravar; lra.
Qed.

Theorem f_of_Z_rel : forall x, 0 <= x < two64 ->
  ffin (f_of_Z x) = true /\ exists d, (Rabs d <= e64)%R /\ FR (f_of_Z x) = (IZR x * (1 + d))%R.
Proof.
  intros x Hx. destruct (Z_lt_le_dec x two63) as [Hlo|Hhi].
  - destruct (f_of_Z_low x ltac:(lia)) as [Hv Hf]. split; [exact Hf|].
    destruct (rnd_rel (IZR x)) as [d [Hd Hr]].
    { destruct (Z.eq_dec x 0) as [->|Hnz]; [left; reflexivity|right].
      rewrite Rabs_pos_eq; [|apply IZR_le; lia]. assert (1 <= IZR x)%R by (apply IZR_le; lia). lra. }
    exists d. split; [unfold e64; lra|]. rewrite Hv. exact Hr.
  - destruct (f_of_Z_high x ltac:(lia)) as [Hy1 [Hy2 [Hv Hf]]]. split; [exact Hf|].
    set (y := Z.lor (x / 2) (x mod 2)) in *.
    destruct (rnd_rel (IZR y)) as [d [Hd Hr]].
    { right. assert (two63 <= 2 * y + 1) by lia. unfold two63 in *. rewrite Rabs_pos_eq; [|apply IZR_le; lia].
      assert (1 <= IZR y)%R by (apply IZR_le; lia). lra. }
    assert (HX : (9223372036854775808 <= IZR x)%R) by (apply IZR_le; unfold two63 in Hhi; lia).
    assert (Hdl : (-1 <= 2 * IZR y - IZR x <= 1)%R).
    { rewrite <- mult_IZR, <- minus_IZR. split; apply IZR_le; lia. }
    destruct (fold_rel (IZR x) (IZR y) d HX Hdl Hd) as [d' [Bd' E]].
    exists d'. split; [exact Bd'|]. rewrite Hv, Hr. exact E.
Qed.

Lemma e64_bounds : (0 < e64 < / 1000)%R.
Proof. unfold e64, u53. lra. Qed.

Lemma in_band_R : forall tol cl ch o s,
  FR (1 + tol)%float = ch -> ffin (1 + tol)%float = true ->
  FR (1 - tol)%float = cl -> ffin (1 - tol)%float = true ->
  (/ 2 <= cl <= 2)%R -> (/ 2 <= ch <= 2)%R ->
  0 <= o < two64 -> 0 < s < two64 ->
  exists d_o d_s d_l d_h,
    (Rabs d_o <= e64 /\ Rabs d_s <= e64 /\ Rabs d_l <= u53 /\ Rabs d_h <= u53)%R /\
    in_band tol o s =
      (Rle_bool (IZR s * (1 + d_s) * cl * (1 + d_l)) (IZR o * (1 + d_o)) &&
       Rle_bool (IZR o * (1 + d_o)) (IZR s * (1 + d_s) * ch * (1 + d_h)))%bool.
Proof.
  intros tol cl ch o s Hch Fch Hcl Fcl Bcl Bch Ho Hs.
  destruct (f_of_Z_rel o Ho) as [Fo [d_o [Bo Vo]]].
  destruct (f_of_Z_rel s ltac:(lia)) as [Fs [d_s [Bs Vs]]].
  pose proof e64_bounds as He.
  assert (HS : (1 <= IZR s <= 18446744073709551616)%R) by (unfold two64 in Hs; split; apply IZR_le; lia).
  pose proof (Rabs_le_inv _ _ Bs) as Bs'.
  assert (Hfs : (/ 2 <= FR (f_of_Z s) <= bpow radix2 65)%R).
  { rewrite Vs. change (bpow radix2 65) with (IZR (2 ^ 65)). change (2 ^ 65) with 36893488147419103232. split.
    - apply Rle_trans with (1 * (1 + d_s))%R; [lra|apply Rmult_le_compat_r; lra].
    - apply Rle_trans with (18446744073709551616 * 2)%R; [apply Rmult_le_compat; lra|lra]. }
  assert (Hp : forall v, (/ 2 <= v <= 2)%R -> (/ 4 <= FR (f_of_Z s) * v <= bpow radix2 66)%R).
  { intros v Bv. split.
    - replace (/ 4)%R with (/ 2 * / 2)%R by lra. apply Rmult_le_compat; lra.
    - change 66 with (65 + 1). rewrite bpow_plus. change (bpow radix2 1) with 2%R. apply Rmult_le_compat; lra. }
  destruct (mul_rel _ _ 66 Fs Fch ltac:(lia)) as [Fhi [d_h [Bh Vh]]]; [rewrite Hch; apply Hp, Bch|].
  destruct (mul_rel _ _ 66 Fs Fcl ltac:(lia)) as [Flo [d_l [Bl Vl]]]; [rewrite Hcl; apply Hp, Bcl|].
  exists d_o, d_s, d_l, d_h. split; [repeat split; assumption|].
  unfold in_band. cbv zeta. rewrite (leb_R _ _ Flo Fo), (leb_R _ _ Fo Fhi). rewrite Vl, Vh, Vo, Hcl, Hch, Vs. reflexivity.
Qed.

Lemma one_plus_prod_bounds : forall a b e u, (Rabs a <= e)%R -> (Rabs b <= u)%R -> (e < 1)%R -> (u < 1)%R ->
  ((1 - e) * (1 - u) <= (1 + a) * (1 + b) <= (1 + e) * (1 + u))%R.
Proof. intros a b e u Ha Hb He Hu. apply Rabs_le_inv in Ha, Hb. split; apply Rmult_le_compat; lra. Qed.

Lemma scaled_prod_bounds : forall S c a b e u, (0 < S)%R -> (0 < c)%R ->
  (Rabs a <= e)%R -> (Rabs b <= u)%R -> (e < 1)%R -> (u < 1)%R ->
  (S * ((1 - e) * c * (1 - u)) <= S * (1 + a) * c * (1 + b) <= S * ((1 + e) * c * (1 + u)))%R.
Proof.
  intros S c a b e u HS Hc Ha Hb He Hu.
  destruct (one_plus_prod_bounds a b e u Ha Hb He Hu) as [Hdn Hup].
  assert (HSc : (0 < S * c)%R) by (apply Rmult_lt_0_compat; assumption).
  replace (S * (1 + a) * c * (1 + b))%R with (S * c * ((1 + a) * (1 + b)))%R by ring.
  replace (S * ((1 - e) * c * (1 - u)))%R with (S * c * ((1 - e) * (1 - u)))%R by ring.
  replace (S * ((1 + e) * c * (1 + u)))%R with (S * c * ((1 + e) * (1 + u)))%R by ring.
  split; apply Rmult_le_compat_l; lra.
Qed.

(* the test with its four relative errors lies between the rules T - eps and T + eps, whenever
   cl and ch leave room for the errors; everything is compared after multiplying out, the only
   division being by 1 +/- e *)
Lemma real_band : forall e u T eps cl ch O S d_o d_s d_l d_h,
  (0 < e < / 1000)%R -> (0 < u < / 1000)%R -> (0 <= O)%R -> (0 < S)%R -> (0 < cl)%R -> (0 < ch)%R ->
  (Rabs d_o <= e)%R -> (Rabs d_s <= e)%R -> (Rabs d_l <= u)%R -> (Rabs d_h <= u)%R ->
  let test := (S * (1 + d_s) * cl * (1 + d_l) <= O * (1 + d_o) /\
               O * (1 + d_o) <= S * (1 + d_s) * ch * (1 + d_h))%R in
  (((1 + e) * ch * (1 + u) <= (1 + T + eps) * (1 - e))%R ->
   ((1 - T - eps) * (1 + e) <= (1 - e) * cl * (1 - u))%R ->
   test -> (Rabs (O - S) <= (T + eps) * S)%R) /\
  (((1 + T - eps) * (1 + e) <= (1 - e) * ch * (1 - u))%R ->
   ((1 + e) * cl * (1 + u) <= (1 - T + eps) * (1 - e))%R ->
   (Rabs (O - S) <= (T - eps) * S)%R -> test).
Proof.
  intros e u T eps cl ch O S d_o d_s d_l d_h He Hu HO HS Hcl Hch Bo Bs Bl Bh test. subst test.
  destruct (scaled_prod_bounds S cl d_s d_l e u) as [Ldn Lup]; [lra..|].
  destruct (scaled_prod_bounds S ch d_s d_h e u) as [Hdn Hup]; [lra..|].
  apply Rabs_le_inv in Bo.
  assert (Ho : (O * (1 - e) <= O * (1 + d_o) <= O * (1 + e))%R) by (split; apply Rmult_le_compat_l; lra).
  clear Bs Bl Bh Bo Hcl Hch.
  split; intros K1 K2 H; apply (Rmult_le_compat_l S _ _ (Rlt_le _ _ HS)) in K1, K2.
  - destruct H as [Hlo Hhi].
    assert (H1 : (S * (1 - T - eps) * (1 + e) <= O * (1 + e))%R) by lra.
    assert (H2 : (O * (1 - e) <= S * (1 + T + eps) * (1 - e))%R) by lra.
    apply Rmult_le_reg_r in H1, H2; [|lra..]. apply Rabs_le. lra.
  - apply Rabs_le_inv in H.
    assert (H1 : (S * (1 - T + eps) * (1 - e) <= O * (1 - e))%R) by (apply Rmult_le_compat_r; lra).
    assert (H2 : (O * (1 + e) <= S * (1 + T - eps) * (1 + e))%R) by (apply Rmult_le_compat_r; lra).
    split; lra.
Qed.

Lemma Rle_bool_true_inv : forall x y, Rle_bool x y = true -> (x <= y)%R.
Proof. intros x y H. destruct (Rle_bool_spec x y) as [Hle|Hgt]; [exact Hle|discriminate H]. Qed.

Theorem band_gen : forall tol T eps cl ch o s,
  FR (1 + tol)%float = ch -> ffin (1 + tol)%float = true ->
  FR (1 - tol)%float = cl -> ffin (1 - tol)%float = true ->
  (/ 2 <= cl <= 2)%R -> (/ 2 <= ch <= 2)%R ->
  0 <= o < two64 -> 0 < s < two64 ->
  (((1 + e64) * ch * (1 + u53) <= (1 + T + eps) * (1 - e64))%R ->
   ((1 - T - eps) * (1 + e64) <= (1 - e64) * cl * (1 - u53))%R ->
   in_band tol o s = true -> (Rabs (IZR o - IZR s) <= (T + eps) * IZR s)%R) /\
  (((1 + T - eps) * (1 + e64) <= (1 - e64) * ch * (1 - u53))%R ->
   ((1 + e64) * cl * (1 + u53) <= (1 - T + eps) * (1 - e64))%R ->
   (Rabs (IZR o - IZR s) <= (T - eps) * IZR s)%R -> in_band tol o s = true).
Proof.
  intros tol T eps cl ch o s Hch Fch Hcl Fcl Bcl Bch Ho Hs.
  destruct (in_band_R tol cl ch o s Hch Fch Hcl Fcl Bcl Bch Ho Hs) as [d_o [d_s [d_l [d_h [[Bo [Bs [Bl Bh]]] Heq]]]]].
  rewrite Heq.
  destruct (real_band e64 u53 T eps cl ch (IZR o) (IZR s) d_o d_s d_l d_h e64_bounds u53_pos)
    as [Hsound Hcomplete]; try assumption; try lra.
  - apply IZR_le; lia.
  - apply IZR_lt; lia.
  - split.
    + intros K1 K2 Hin. apply andb_true_iff in Hin as [Hlo Hhi]. apply Rle_bool_true_inv in Hlo, Hhi. auto.
    + intros K1 K2 Habs. destruct (Hcomplete K1 K2 Habs). apply andb_true_iff. split; apply Rle_bool_true; assumption.
Qed.

(* eps = 2^-50 *)
Definition eps50 : R := (/ 1125899906842624)%R.

Lemma hi_10 : FR (1 + tol_10)%float = (4953959590107546 / 4503599627370496)%R /\ ffin (1 + tol_10)%float = true.
Proof. const_val 4953959590107546%positive (-52). Qed.
Lemma lo_10 : FR (1 - tol_10)%float = (8106479329266893 / 9007199254740992)%R /\ ffin (1 - tol_10)%float = true.
Proof. const_val 8106479329266893%positive (-53). Qed.
Lemma hi_25 : FR (1 + tol_25)%float = (5 / 4)%R /\ ffin (1 + tol_25)%float = true.
Proof. const_val 5629499534213120%positive (-52). Qed.
Lemma lo_25 : FR (1 - tol_25)%float = (3 / 4)%R /\ ffin (1 - tol_25)%float = true.
Proof. const_val 6755399441055744%positive (-53). Qed.
Lemma hi_1 : FR (1 + tol_1)%float = (4548635623644201 / 4503599627370496)%R /\ ffin (1 + tol_1)%float = true.
Proof. const_val 4548635623644201%positive (-52). Qed.
Lemma lo_1 : FR (1 - tol_1)%float = (8917127262193582 / 9007199254740992)%R /\ ffin (1 - tol_1)%float = true.
Proof. const_val 8917127262193582%positive (-53). Qed.
Lemma hi_01 : FR (1 + tol_01)%float = (4508103226997866 / 4503599627370496)%R /\ ffin (1 + tol_01)%float = true.
Proof. const_val 4508103226997866%positive (-52). Qed.
Lemma lo_01 : FR (1 - tol_01)%float = (8998192055486251 / 9007199254740992)%R /\ ffin (1 - tol_01)%float = true.
Proof. const_val 8998192055486251%positive (-53). Qed.

(* the four tolerances of node/sync.go with their real values *)
Inductive band_tol : Floats.PrimFloat.float -> R -> Prop :=
  | band_tol_10 : band_tol tol_10 (1 / 10)%R
  | band_tol_25 : band_tol tol_25 (1 / 4)%R
  | band_tol_1  : band_tol tol_1 (1 / 100)%R
  | band_tol_01 : band_tol tol_01 (1 / 1000)%R.

(* for each of them 1 +/- tol is known exactly, and lies within 2^-50 of 1 +/- T with room for the
   three roundings of the test *)
Lemma band_tol_consts : forall tol T, band_tol tol T -> exists cl ch,
  (FR (1 + tol)%float = ch /\ ffin (1 + tol)%float = true) /\
  (FR (1 - tol)%float = cl /\ ffin (1 - tol)%float = true) /\
  (/ 2 <= cl <= 2)%R /\ (/ 2 <= ch <= 2)%R /\
  ((1 + e64) * ch * (1 + u53) <= (1 + T + eps50) * (1 - e64))%R /\
  ((1 - T - eps50) * (1 + e64) <= (1 - e64) * cl * (1 - u53))%R /\
  ((1 + T - eps50) * (1 + e64) <= (1 - e64) * ch * (1 - u53))%R /\
  ((1 + e64) * cl * (1 + u53) <= (1 - T + eps50) * (1 - e64))%R.
Proof.
  intros tol T []; eexists _, _.
  1: split; [exact hi_10|split; [exact lo_10|]].
  2: split; [exact hi_25|split; [exact lo_25|]].
  3: split; [exact hi_1|split; [exact lo_1|]].
  4: split; [exact hi_01|split; [exact lo_01|]].
  all: unfold e64, u53, eps50; repeat split; lra.
Qed.

(* C12, the numeric sandwich: the binary64 band test lies between the real-number rules with
   tolerance T - 2^-50 and T + 2^-50, for every pair of uint64 quotes *)
Theorem band_sound : forall tol T o s, band_tol tol T ->
  0 <= o < 2 ^ 64 -> 0 < s < 2 ^ 64 -> in_band tol o s = true ->
  (Rabs (IZR o - IZR s) <= (T + eps50) * IZR s)%R.
Proof.
  intros tol T o s HT Ho Hs. change (2 ^ 64) with two64 in Ho, Hs.
  destruct (band_tol_consts tol T HT) as (cl & ch & [Vh Fh] & [Vl Fl] & Bl & Bh & K1 & K2 & _).
  exact (proj1 (band_gen tol T eps50 cl ch o s Vh Fh Vl Fl Bl Bh Ho Hs) K1 K2).
Qed.
Print Assumptions band_sound.

Theorem band_complete : forall tol T o s, band_tol tol T ->
  0 <= o < 2 ^ 64 -> 0 < s < 2 ^ 64 ->
  (Rabs (IZR o - IZR s) <= (T - eps50) * IZR s)%R -> in_band tol o s = true.
Proof.
  intros tol T o s HT Ho Hs. change (2 ^ 64) with two64 in Ho, Hs.
  destruct (band_tol_consts tol T HT) as (cl & ch & [Vh Fh] & [Vl Fl] & Bl & Bh & _ & _ & K1 & K2).
  exact (proj2 (band_gen tol T eps50 cl ch o s Vh Fh Vl Fl Bl Bh Ho Hs) K1 K2).
Qed.
Print Assumptions band_complete.

Corollary band_reject : forall tol T o s, band_tol tol T ->
  0 <= o < 2 ^ 64 -> 0 < s < 2 ^ 64 -> in_band tol o s = false ->
  ((T - eps50) * IZR s < Rabs (IZR o - IZR s))%R.
Proof.
  intros tol T o s HT Ho Hs Hin. apply Rnot_le_lt. intros Hle.
  rewrite (band_complete tol T o s HT Ho Hs Hle) in Hin. discriminate Hin.
Qed.

Print Assumptions f_of_Z_exact.
Print Assumptions f_of_Z_rel.

(* 1 +/- 0.25 are binary64 numbers and 5s/4, 3s/4 are representable for s < 2^50, so nothing rounds:
   there the code keeps the OPR quote iff 4|o - s| <= s, i.e. iff |o - s| <= s/4 in the reals *)
Lemma rnd_quarters_exact : forall k, Z.abs k < 2 ^ 53 -> rnd (IZR k / 4) = (IZR k / 4)%R.
Proof.
  intros k Hk. replace (IZR k / 4)%R with (F2R (Float radix2 k (-2))) by (unfold F2R; cbn [Fnum Fexp]; bpow_const; lra).
  apply rnd_F2R; [exact Hk|lia].
Qed.

Lemma Rle_bool_quarters : forall a b, Rle_bool (IZR a / 4) (IZR b / 4) = (a <=? b).
Proof.
  intros a b. destruct (Rle_bool_spec (IZR a / 4) (IZR b / 4)) as [H|H]; destruct (Z.leb_spec a b) as [H'|H'];
    try reflexivity; exfalso.
  - apply IZR_lt in H'. lra.
  - apply IZR_le in H'. lra.
Qed.

Theorem band_25_exact : forall o s, 0 <= o < 2 ^ 53 -> 0 < s < 2 ^ 50 ->
  in_band tol_25 o s = (4 * Z.abs (o - s) <=? s).
Proof.
  intros o s Ho Hs. destruct (f_of_Z_exact o Ho) as [Vo Fo]. destruct (f_of_Z_exact s ltac:(lia)) as [Vs Fs].
  destruct hi_25 as [Vh Fh]. destruct lo_25 as [Vl Fl].
  assert (HS : (1 <= IZR s <= 1125899906842624)%R) by (split; apply IZR_le; lia).
  assert (Hmul : forall c (k : Z), FR c = (IZR k / 4)%R -> ffin c = true -> 0 < k <= 5 ->
     ffin (f_of_Z s * c)%float = true /\ FR (f_of_Z s * c)%float = (IZR (k * s) / 4)%R).
  { intros c k Hv Fc Hk. assert (HK : (0 < IZR k <= 5)%R) by (split; [apply IZR_lt|apply IZR_le]; lia).
    destruct (mul_R (f_of_Z s) c 60 Fs Fc ltac:(lia)) as [Hm Fm].
    - rewrite Hv, Vs. rewrite Rabs_pos_eq by (apply Rmult_le_pos; lra). change (bpow radix2 60) with (IZR (2 ^ 60)).
      change (2 ^ 60) with 1152921504606846976.
      apply Rle_trans with (1125899906842624 * (5 / 4))%R; [apply Rmult_le_compat; lra|lra].
    - split; [exact Fm|]. rewrite Hm, Hv, Vs.
      replace (IZR s * (IZR k / 4))%R with (IZR (k * s) / 4)%R by (rewrite mult_IZR; field).
      apply rnd_quarters_exact. nia. }
  destruct (Hmul _ 5 Vh Fh ltac:(lia)) as [Fhi Vhi]. destruct (Hmul _ 3 Vl Fl ltac:(lia)) as [Flo Vlo].
  unfold in_band. cbv zeta. rewrite (leb_R _ _ Flo Fo), (leb_R _ _ Fo Fhi). rewrite Vlo, Vhi, Vo.
  replace (IZR o) with (IZR (4 * o) / 4)%R by (rewrite mult_IZR; field). rewrite !Rle_bool_quarters.
  destruct (Z.leb_spec (3 * s) (4 * o)) as [H1|H1]; destruct (Z.leb_spec (4 * o) (5 * s)) as [H2|H2];
    destruct (Z.leb_spec (4 * Z.abs (o - s)) s) as [H3|H3]; cbn [andb]; try reflexivity; exfalso; lia.
Qed.
Print Assumptions band_25_exact.

(* the band edges at s = 100000.  NOTE the 0.1% band: 1 + 0.001 rounds BELOW 1001/1000 in binary64
   (hi_01: 4508103226997866 / 2^52 < 1001/1000), so the quote exactly 0.1% above the SPR value is
   rejected by the code although |o - s| = s/1000: the real-number rule "kept iff |o - s| <= T * s"
   is false of the code at that edge, and band_complete cannot hold with eps = 0. *)
Example band_edges_01 :
  in_band tol_01 100100 100000 = false /\ in_band tol_01 100099 100000 = true /\
  in_band tol_01 99900 100000 = true /\ in_band tol_01 99899 100000 = false.
Proof. vm_compute. repeat split; reflexivity. Qed.
Example band_edges_1 :
  in_band tol_1 101000 100000 = true /\ in_band tol_1 101001 100000 = false /\
  in_band tol_1 99000 100000 = true /\ in_band tol_1 98999 100000 = false.
Proof. vm_compute. repeat split; reflexivity. Qed.
Example band_edges_10 :
  in_band tol_10 110000 100000 = true /\ in_band tol_10 110001 100000 = false /\
  in_band tol_10 90000 100000 = true /\ in_band tol_10 89999 100000 = false.
Proof. vm_compute. repeat split; reflexivity. Qed.
Example band_edges_25 :
  in_band tol_25 125000 100000 = true /\ in_band tol_25 125001 100000 = false /\
  in_band tol_25 75000 100000 = true /\ in_band tol_25 74999 100000 = false.
Proof. vm_compute. repeat split; reflexivity. Qed.
(* band_sound cannot hold with eps = 0 either: above 2^53 the conversions round, and a quote
   strictly more than 10% above the SPR value is kept *)
Example band_sound_needs_eps :
  in_band tol_10 6306855386940901 5733504897219000 = true /\
  10 * (6306855386940901 - 5733504897219000) > 5733504897219000.
Proof. split; [vm_compute; reflexivity|lia]. Qed.
Example band_top : in_band tol_10 18446744073709551615 18446744073709551615 = true /\
  in_band tol_25 18446744073709551615 14757395258967641292 = true.
Proof. vm_compute. split; reflexivity. Qed.
(* f_of_Z above 2^63 is the correctly rounded float64(x): the sticky bit decides the near-ties
   (2^63+1025 rounds up to 2^63+2048, the tie 2^63+1024 goes to even 2^63, 2^64-1 rounds to 2^64) *)
Example f_of_Z_sticky :
  f_of_Z (2 ^ 63 + 1025) = f_of_Z (2 ^ 63 + 2048) /\ f_of_Z (2 ^ 63 + 1024) = f_of_Z (2 ^ 63) /\
  f_of_Z (2 ^ 63 + 3072) = f_of_Z (2 ^ 63 + 4096) /\
  Prim2SF (f_of_Z (2 ^ 64 - 1)) = S754_finite false 4503599627370496 12.
Proof. vm_compute. repeat split; reflexivity. Qed.
