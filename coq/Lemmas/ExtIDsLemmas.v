(* Lemmas/ExtIDsLemmas.v — proofs about valid_extids (fat103.Validate / factom.ValidateRCD), C05. *)
From Coq Require Import ZArith List Bool Lia.
From Model Require Import Codec.
From Lemmas Require Import JsonLemmas RoundTripScan.
Import ListNotations.
Open Scope list_scope.
Open Scope Z_scope.

(* the timestamp salt as strconv.ParseInt accepts it *)
Definition salt_syntax (s : bytes) : Prop :=
  exists sg d, s = sg ++ d /\ (sg = [] \/ sg = [43] \/ sg = [45]) /\ d <> [] /\ all_digits d = true.

Lemma parse_int64_syntax s v : parse_int64 s = Some v -> salt_syntax s.
Proof.
  unfold parse_int64, salt_syntax.
  set (sp := match s with
             | c :: r => if c =? 45 then (true, r) else if c =? 43 then (false, r) else (false, s)
             | [] => (false, s) end).
  assert (Hsp : exists sg, s = sg ++ snd sp /\ (sg = [] \/ sg = [43] \/ sg = [45])).
  { unfold sp. destruct s as [|c r]; [exists []; auto|].
    destruct (Z.eqb_spec c 45) as [->|]; [exists [45]; auto|].
    destruct (Z.eqb_spec c 43) as [->|]; [exists [43]; auto|exists []; auto]. }
  destruct sp as [neg d]. cbn [snd] in Hsp. destruct Hsp as (sg & -> & Hsg).
  destruct d as [|c d]; [discriminate|]. destruct (all_digits (c :: d)) eqn:D; [|discriminate]. intros _.
  exists sg, (c :: d). repeat split; auto; discriminate.
Qed.

Lemma sign_of_head sg d x : sg = [] \/ sg = [43] \/ sg = [45] -> d <> [] -> all_digits d = true ->
  sg = match sg ++ d ++ x with c :: _ => if is_digit c then [] else [c] | [] => [] end.
Proof.
  intros Hsg Nd D. destruct d as [|c d]; [congruence|]. apply all_digits_cons in D as [Dc _].
  destruct Hsg as [->|[->| ->]]; cbn [app]; [rewrite Dc|..]; reflexivity.
Qed.

Lemma nd_chain chain content : chain <> [] ->
  (forall c r, chain = c :: r -> is_digit c = false) -> nd (chain ++ content) = true.
Proof. intros N H. destruct chain as [|c r]; [congruence|]. cbn [app nd]. rewrite (H c r eq_refl). reflexivity. Qed.

Lemma app_same_length (a : bytes) : forall a' b b', length a = length a' -> a ++ b = a' ++ b' -> a = a' /\ b = b'.
Proof.
  induction a as [|x a IH]; intros [|x' a'] b b' L E; cbn [length] in L; try lia.
  - split; [reflexivity|exact E].
  - cbn [app] in E. injection E as Ex E. subst x'. destruct (IH a' b b' ltac:(lia) E) as [E1 E2]. subst. split; reflexivity.
Qed.

(* The signed message of pair 0 (the only pair of a batch that passed ValidData) is
   0 | salt | chain id | content.  With chain ids of 32 bytes whose first byte is not a digit
   (true of the transaction chain: Gen.Consts.TransactionChainFirstByte), it determines the
   salt, the chain id and the content: the sign by the first byte, the digits by the first
   non-digit, the chain id by its length. *)
Theorem message_injective salt chain content salt' chain' content' :
  salt_syntax salt -> salt_syntax salt' ->
  length chain = 32%nat -> length chain' = 32%nat ->
  (forall c r, chain = c :: r -> is_digit c = false) ->
  (forall c r, chain' = c :: r -> is_digit c = false) ->
  [48] ++ salt ++ chain ++ content = [48] ++ salt' ++ chain' ++ content' ->
  salt = salt' /\ chain = chain' /\ content = content'.
Proof.
  intros (sg & d & -> & Hsg & Nd & D) (sg' & d' & -> & Hsg' & Nd' & D') L L' H H' E.
  assert (N : chain <> []) by (intros ->; discriminate L). assert (N' : chain' <> []) by (intros ->; discriminate L').
  cbn [app] in E. injection E as E. rewrite <- !app_assoc in E.
  pose proof (sign_of_head sg d (chain ++ content) Hsg Nd D) as S.
  rewrite E, <- (sign_of_head sg' d' (chain' ++ content') Hsg' Nd' D') in S. subst sg'. apply app_inv_head in E.
  pose proof (span_digits_nd d D _ (nd_chain _ content N H)) as S.
  rewrite E, (span_digits_nd d' D' _ (nd_chain _ content' N' H')) in S. injection S as <- E3.
  destruct (app_same_length _ _ _ _ (eq_trans L' (eq_sym L)) E3) as [-> ->]. repeat split.
Qed.

Section ExtIDsFacts.
  Variable sig_ok : Z -> bytes -> bytes -> bytes -> bool.
  Variable rcd_hash : bytes -> Z.
  Variable act : Z.

  Notation valid_extids := (valid_extids sig_ok rcd_hash act).
  Notation validate_rcd := (validate_rcd sig_ok rcd_hash act).

  Lemma dedup_all_same a l : l <> [] -> Forall (fun x => x = a) l -> dedup l = [a].
  Proof.
    induction l as [|x l IH]; [congruence|]. intros _ F. inversion F as [|? ? -> F']; subst.
    cbn [dedup]. destruct l as [|y l'].
    - reflexivity.
    - assert (N : y :: l' <> []) by discriminate. specialize (IH N F').
      inversion F' as [|? ? -> _]; subst. cbn [existsb]. rewrite Z.eqb_refl. cbn [orb]. exact IH.
  Qed.

  Lemma validate_rcd_spec h rcd sig msg hh : validate_rcd h rcd sig msg = Some hh ->
    hh = rcd_hash rcd /\
    ( (exists pk, rcd = 1 :: pk /\ length pk = 32%nat /\ length sig = 64%nat /\ sig_ok 1 pk msg sig = true)
      \/ (exists pk, rcd = 14 :: pk /\ rcde_enabled act h = true /\ length pk = 64%nat /\
                     length sig = 65%nat /\ sig_ok 14 pk msg (firstn 64 sig) = true) ).
  Proof.
    unfold Codec.validate_rcd. destruct rcd as [|ty pk]; [discriminate|].
    destruct (Z.eqb_spec ty 1) as [->|N1].
    - cbn [rcd1_enabled negb]. destruct (Nat.eqb_spec (length (1 :: pk)) 33) as [L|]; [|discriminate].
      destruct (Nat.eqb_spec (length sig) 64) as [L2|]; [|discriminate]. cbn [negb].
      destruct (sig_ok 1 pk msg sig) eqn:S; [|discriminate]. intros [= <-]. split; [reflexivity|].
      left. exists pk. cbn [length] in L. repeat split; auto; lia.
    - destruct (Z.eqb_spec ty 14) as [->|N14]; [|discriminate].
      destruct (rcde_enabled act h) eqn:En; [|discriminate]. cbn [negb].
      destruct (Nat.eqb_spec (length (14 :: pk)) 65) as [L|]; [|discriminate].
      destruct (Nat.eqb_spec (length sig) 65) as [L2|]; [|discriminate]. cbn [negb].
      destruct (sig_ok 14 pk msg (firstn 64 sig)) eqn:S; [|discriminate]. intros [= <-]. split; [reflexivity|].
      right. exists pk. cbn [length] in L. repeat split; auto; lia.
  Qed.

  (* the accepted shape for a batch with the single input address a (what ValidData leaves) *)
  Theorem valid_extids_single_spec h inputs a e :
    inputs <> [] -> Forall (fun x => x = a) inputs ->
    valid_extids h inputs e = true ->
    exists salt rcd sig sec,
      re_extids e = [salt; rcd; sig] /\
      parse_int64 salt = Some sec /\ - salt_window <= re_ts e - sec <= salt_window /\
      rcd_hash rcd = a /\
      ( (exists pk, rcd = 1 :: pk /\ length pk = 32%nat /\ length sig = 64%nat /\
                    sig_ok 1 pk (signed_message 0 e) sig = true)
        \/ (exists pk, rcd = 14 :: pk /\ rcde_enabled act h = true /\ length pk = 64%nat /\
                       length sig = 65%nat /\ sig_ok 14 pk (signed_message 0 e) (firstn 64 sig) = true) ).
  Proof.
    intros N F. unfold Codec.valid_extids. rewrite (dedup_all_same a inputs N F).
    destruct (Nat.eqb_spec (length (re_extids e)) (2 * length [a] + 1)) as [L|]; [|discriminate].
    cbn [negb length] in *. destruct (re_extids e) as [|salt [|rcd [|sig [|x r]]]] eqn:Ex; cbn [length] in L; try lia.
    destruct (parse_int64 salt) as [sec|] eqn:P; [|discriminate].
    destruct (Z.ltb_spec (re_ts e - sec) (- salt_window)) as [|W1]; [discriminate|].
    destruct (Z.ltb_spec salt_window (re_ts e - sec)) as [|W2]; [discriminate|]. cbn [orb].
    cbn [validate_pairs].
    destruct (validate_rcd h rcd sig (signed_message 0 e)) as [hh|] eqn:V; [|discriminate].
    destruct (validate_rcd_spec _ _ _ _ _ V) as [Ehh Hsh]. subst hh.
    cbn [remove_first]. destruct (Z.eqb_spec (rcd_hash rcd) a) as [Eh|]; [|discriminate].
    intros _. exists salt, rcd, sig, sec. repeat split; auto; lia.
  Qed.

  Theorem invalid_extids_rejected h inputs a e :
    inputs <> [] -> Forall (fun x => x = a) inputs ->
    ( length (re_extids e) <> 3%nat
      \/ (forall salt, nth_error (re_extids e) 0 = Some salt -> parse_int64 salt = None)
      \/ (exists salt sec, nth_error (re_extids e) 0 = Some salt /\ parse_int64 salt = Some sec /\
                           salt_window < Z.abs (re_ts e - sec))
      \/ (exists rcd, nth_error (re_extids e) 1 = Some rcd /\
                      (rcd = [] \/ (exists ty pk, rcd = ty :: pk /\ ty <> 1 /\ ty <> 14)
                       \/ (exists pk, rcd = 1 :: pk /\ length pk <> 32%nat)
                       \/ (exists pk, rcd = 14 :: pk /\ (length pk <> 64%nat \/ rcde_enabled act h = false))
                       \/ rcd_hash rcd <> a))
      \/ (exists rcd sig, nth_error (re_extids e) 1 = Some rcd /\ nth_error (re_extids e) 2 = Some sig /\
                          ( (exists pk, rcd = 1 :: pk /\ (length sig <> 64%nat \/ sig_ok 1 pk (signed_message 0 e) sig = false))
                            \/ (exists pk, rcd = 14 :: pk /\ (length sig <> 65%nat \/
                                  sig_ok 14 pk (signed_message 0 e) (firstn 64 sig) = false)))) ) ->
    valid_extids h inputs e = false.
  Proof.
    intros N F Bad. destruct (valid_extids h inputs e) eqn:V; [|reflexivity]. exfalso.
    destruct (valid_extids_single_spec h inputs a e N F V) as (salt & rcd & sig & sec & Ex & P & W & Hh & Sh).
    destruct Bad as [B|[B|[B|[B|B]]]]; rewrite Ex in B; cbn [length nth_error] in B.
    - congruence.
    - specialize (B salt eq_refl). congruence.
    - destruct B as (s & sec' & [= <-] & P' & W'). rewrite P in P'. injection P' as <-. lia.
    - destruct B as (r & [= <-] & [B|[B|[B|[B|B]]]]).
      + subst rcd. destruct Sh as [(pk & E & _)|(pk & E & _)]; discriminate.
      + destruct B as (ty & pk & -> & N1 & N14). destruct Sh as [(pk' & E & _)|(pk' & E & _)]; injection E; congruence.
      + destruct B as (pk & -> & NL). destruct Sh as [(pk' & E & L & _)|(pk' & E & _)]; [injection E as <-; congruence|discriminate].
      + destruct B as (pk & -> & NL). destruct Sh as [(pk' & E & _)|(pk' & E & En & L & _)]; [discriminate|].
        injection E as <-. destruct NL; congruence.
      + congruence.
    - destruct B as (r & g & [= <-] & [= <-] & [(pk & -> & B)|(pk & -> & B)]).
      + destruct Sh as [(pk' & E & _ & L & S)|(pk' & E & _)]; [|discriminate]. injection E as <-. destruct B; congruence.
      + destruct Sh as [(pk' & E & _)|(pk' & E & _ & _ & L & S)]; [discriminate|]. injection E as <-. destruct B; congruence.
  Qed.

  (* the salt window: accepted => |entry timestamp - salt| <= 12 h, both ends included *)
  Theorem salt_window_accepted h inputs a e :
    inputs <> [] -> Forall (fun x => x = a) inputs -> valid_extids h inputs e = true ->
    exists salt sec, nth_error (re_extids e) 0 = Some salt /\ parse_int64 salt = Some sec /\
                     Z.abs (re_ts e - sec) <= salt_window.
  Proof.
    intros N F V.
    destruct (valid_extids_single_spec h inputs a e N F V) as (salt & rcd & sig & sec & Ex & P & W & _).
    exists salt, sec. rewrite Ex. repeat split; auto. lia.
  Qed.

  (* RCD-e is not accepted at heights 0..activation (it is above it, and at negative heights) *)
  Theorem rcde_not_before_activation h inputs a e :
    inputs <> [] -> Forall (fun x => x = a) inputs ->
    0 <= h <= act -> valid_extids h inputs e = true ->
    exists salt pk sig, re_extids e = [salt; 1 :: pk; sig].
  Proof.
    intros N F Hh V.
    destruct (valid_extids_single_spec h inputs a e N F V) as (salt & rcd & sig & sec & Ex & _ & _ & _ & Sh).
    destruct Sh as [(pk & -> & _)|(pk & -> & En & _)]; [exists salt, pk, sig; exact Ex|].
    unfold rcde_enabled in En. apply orb_true_iff in En as [En|En]; apply Z.ltb_lt in En; lia.
  Qed.

  (* for RCD-1 the verified triple (public key, message, signature) determines every byte of
     the ExtIDs, the chain id and the content.  (That the RCD is of type 1 is the reading, not an
     ingredient: the proof only uses that the two entries carry the same RCD.) *)
  Theorem rcd1_triple_determines_entry h inputs a e e' pk sig :
    inputs <> [] -> Forall (fun x => x = a) inputs ->
    valid_extids h inputs e = true -> valid_extids h inputs e' = true ->
    nth_error (re_extids e) 1 = Some (1 :: pk) -> nth_error (re_extids e') 1 = Some (1 :: pk) ->
    nth_error (re_extids e) 2 = Some sig -> nth_error (re_extids e') 2 = Some sig ->
    signed_message 0 e = signed_message 0 e' ->
    length (re_chain e) = 32%nat -> length (re_chain e') = 32%nat ->
    (forall c r, re_chain e = c :: r -> is_digit c = false) ->
    (forall c r, re_chain e' = c :: r -> is_digit c = false) ->
    re_extids e = re_extids e' /\ re_chain e = re_chain e' /\ re_content e = re_content e'.
  Proof.
    intros N F V V' R R' S S' M L L' C C'.
    destruct (valid_extids_single_spec h inputs a e N F V) as (salt & rcd & sg & sec & Ex & P & _).
    destruct (valid_extids_single_spec h inputs a e' N F V') as (salt' & rcd' & sg' & sec' & Ex' & P' & _).
    rewrite Ex in R, S. rewrite Ex' in R', S'. cbn [nth_error] in *.
    injection R as ->. injection R' as ->. injection S as ->. injection S' as ->.
    unfold signed_message in M. rewrite Ex, Ex' in M. cbn [nth] in M.
    change (dec_of_index 0) with [48] in M.
    destruct (message_injective _ _ _ _ _ _ (parse_int64_syntax _ _ P) (parse_int64_syntax _ _ P') L L' C C' M)
      as (Es & Ec & Ect). subst salt'.
    rewrite Ex, Ex'. repeat split; auto.
  Qed.
End ExtIDsFacts.
