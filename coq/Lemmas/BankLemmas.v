(* Lemmas/BankLemmas.v — the legacy PEG bank at the level of the LEDGER (recordPegnetRequests), not only of the
   payout arithmetic: the PEG that one bank pass creates is the sum of the yields, which never exceeds the bank
   (and exhausts it when the requests reach it); the bank row records amount / used / requested.  For entries
   that consist of PEG requests only (what [apply_held] queues outside the recorded mixed-batch finding). *)
From Model Require Import Examples.
From Lemmas Require Import ArithLemmas DbLemmas LedgerLemmas BlockLemmas PayoutLemmas SupplyLemmas HistoryLemmas4.
From Gen Require Import Consts.
From Coq Require Import Lia.
Open Scope Z_scope.
Open Scope list_scope.

Section Bank.
Variable c : cfg.

Definition peg_req_tx (t : tx) : Prop := tx_conv t = PTickerPEG /\ tx_type t <> PTickerPEG.
Definition pure_peg_batches (batches : list (hash * list tx)) : Prop :=
  Forall (fun b => Forall peg_req_tx (snd b)) batches.

Lemma reqs_of_batch_txs h rates avgs hs txs : forall i r,
  In r (reqs_of_batch c h rates avgs hs i txs) -> In (pr_tx r) txs /\ 0 <= pr_amt r < two64.
Proof.
  induction txs as [|t txs IH]; intros i r Hin; cbn [reqs_of_batch] in Hin; [contradiction|].
  destruct Hin as [<-|Hin]; cbn [pr_tx pr_amt].
  - split; [left; reflexivity|split; [apply wrap64_nonneg|apply wrap64_lt]].
  - destruct (IH _ _ Hin) as [H1 H2]. split; [right; exact H1|exact H2].
Qed.

Lemma reqs_of_pure h rates avgs batches r :
  pure_peg_batches batches -> In r (reqs_of c h rates avgs batches) -> peg_req_tx (pr_tx r) /\ 0 <= pr_amt r < two64.
Proof.
  intros Hp Hin. unfold reqs_of in Hin. apply in_flat_map in Hin as (b & Hb & Hin).
  destruct (reqs_of_batch_txs _ _ _ _ _ _ _ Hin) as [H1 H2]. split; [|exact H2].
  unfold pure_peg_batches in Hp. rewrite Forall_forall in Hp. specialize (Hp b Hb). rewrite Forall_forall in Hp. apply Hp; exact H1.
Qed.

Lemma bank_set_peg_request_amounts s hs i amt out : bank (set_peg_request_amounts s hs i amt out) = bank s.
Proof. reflexivity. Qed.

Lemma pay_request_peg h rates (reqs : list peg_req) s p s' :
  (forall r, In r reqs -> peg_req_tx (pr_tx r)) ->
  In (fst p) (map pr_txid reqs) ->
  pay_request c h rates reqs s p = Ok s' ->
  supply s' PTickerPEG = supply s PTickerPEG + snd p /\ bank s' = bank s.
Proof.
  intros Hp Hk H. apply pay_request_inv in H.
  destruct (find (fun r => txid_eqb (pr_txid r) (fst p)) reqs) as [r|] eqn:Ef.
  - apply find_some in Ef as [Hin _]. destruct (Hp r Hin) as [Ec Et]. destruct H as (rf & s2 & H2 & H3).
    pose proof (supply_add _ _ _ _ _ PTickerPEG H2 : supply s2 PTickerPEG = supply s PTickerPEG + _) as S2.
    pose proof (supply_add _ _ _ _ _ PTickerPEG H3) as S3.
    apply add_to_balance_ok in H2 as (_ & _ & E2). apply add_to_balance_ok in H3 as (_ & _ & E3).
    rewrite Ec, Z.eqb_refl in S2.
    destruct (Z.eqb_spec (tx_type (pr_tx r)) PTickerPEG) as [E|_]; [contradiction|].
    split; [lia|]. rewrite E3, E2. reflexivity.
  - exfalso. apply in_map_iff in Hk as (r & Er & Hin). pose proof (find_none _ _ Ef r Hin) as Hn. cbn beta in Hn.
    rewrite Er, txid_eqb_refl in Hn. discriminate.
Qed.

Theorem peg_created_within_bank h s batches rates avgs bankamt bh s' :
  pure_peg_batches batches -> 0 <= bankamt < two64 ->
  record_peg_requests c h s batches rates avgs bankamt bh = Ok s' ->
  let rs := map (fun r => (pr_txid r, pr_amt r)) (reqs_of c h rates avgs batches) in
  supply s' PTickerPEG = supply s PTickerPEG + sum_snd (payouts bankamt rs) /\
  sum_snd (payouts bankamt rs) <= bankamt /\
  (bankamt <= total_requested_big rs -> rs <> [] -> sum_snd (payouts bankamt rs) = bankamt) /\
  (total_requested_big rs < bankamt -> payouts bankamt rs = rs) /\
  (* the bank row (from V4OPRUpdate on): amount kept, used = PEG created, requested = what was asked for *)
  (c_V4OPRUpdate c <= bh -> exists amount u q, bank s !! bh = Some (amount, u, q) /\
      bank s' = <[bh := (amount, sum_snd (payouts bankamt rs), total_requested rs)]> (bank s)) /\
  (bh < c_V4OPRUpdate c -> bank s' = bank s).
Proof.
  intros Hpure Hb H rs. apply (record_peg_requests_ord_inv c (fun l => l)) in H as (Hnd & s1 & H1 & H2). apply has_dup_txid_nodup in Hnd.
  fold (reqs_of c h rates avgs batches) in Hnd, H1, H2. fold rs in H1, H2.
  set (reqs := reqs_of c h rates avgs batches) in *.
  assert (Hok : reqs_ok rs).
  { unfold reqs_ok, rs. rewrite Forall_map, Forall_forall. intros r Hin. exact (proj2 (reqs_of_pure _ _ _ _ _ Hpure Hin)). }
  assert (Hnd' : txids_nodup rs) by (unfold txids_nodup, rs; rewrite map_map; exact Hnd).
  assert (Hpay : forall s0 p s2, In p (payouts bankamt rs) -> pay_request c h rates reqs s0 p = Ok s2 ->
                   supply s2 PTickerPEG = supply s0 PTickerPEG + snd p /\ bank s2 = bank s0).
  { intros s0 p s2 Hin. apply pay_request_peg; [intros r Hr; exact (proj1 (reqs_of_pure _ _ _ _ _ Hpure Hr))|].
    apply (in_map fst) in Hin. rewrite payouts_keys in Hin. unfold rs in Hin. rewrite map_map in Hin. exact Hin. }
  assert (A1 : supply s1 PTickerPEG = supply s PTickerPEG + sum_snd (payouts bankamt rs))
    by (revert H1; apply (fold_res_sum (fun x => supply x PTickerPEG) snd); intros; eapply Hpay; eassumption).
  assert (B1 : bank s1 = bank s).
  { revert H1. apply (fold_res_invariant_in (fun x => bank x = bank s)); [|reflexivity].
    intros s0 p s2 Hin E Hs. rewrite <- E. eapply Hpay; eassumption. }
  destruct (payouts_never_exceed_bank bankamt rs Hok Hnd' Hb) as (P1 & P2 & P3).
  rewrite <- A1, <- B1. destruct (Z.leb_spec (c_V4OPRUpdate c) bh).
  - apply update_bank_ok in H2 as (amount & u & q & Eb & ->).
    split; [reflexivity|]. repeat (split; [assumption|]). split; [eauto|lia].
  - subst s'. split; [reflexivity|]. repeat (split; [assumption|]). split; [lia|reflexivity].
Qed.

End Bank.

(* non-vacuity: two entries with three requests that together reach the bank, on the example configuration *)
Definition bx_cfg : cfg := ex_cfg.
Definition bx_tx (a amt : Z) : tx := {| tx_addr := a; tx_type := PTickerFCT; tx_amt := amt; tx_transfers := []; tx_conv := PTickerPEG |}.
Definition bx_rates : gmap ticker Z := {[ PTickerFCT := 400000000; PTickerPEG := 5000000; PTickerUSD := 100000000 ]}.
Definition bx_batches : list (hash * list tx) := [(701, [bx_tx alice 4000000000; bx_tx alice 3]); (702, [bx_tx bob 6000000000])].
Example peg_created_within_bank_hyps :
  pure_peg_batches bx_batches /\
  exists s', record_peg_requests bx_cfg 50 genesis bx_batches bx_rates bx_rates BankBaseAmount 49 = Ok s' /\
             supply s' PTickerPEG = BankBaseAmount.
Proof.
  split.
  - repeat constructor; cbn; discriminate.
  - apply ok_witness. vm_compute. reflexivity.
Qed.
