(* Lemmas/TotalityAdjust.v — C08 (sync liveness): the one-time adjustments of the live era cannot fail and only move
   balances: NullifyBurnAddress from 2.0.2 on (no zeroing coinbase any more), the mint of V204EnhanceActivation and the
   burn of the minted tokens of V204BurnMintedTokenActivation.  [only_bal s s']: s' is s with other balances. *)
From Model Require Import Block.
From Lemmas Require Import ArithLemmas DbLemmas LedgerLemmas BlockLemmas IssuanceLemmas TotalityLemmas.
From Gen Require Import Consts.
From Coq Require Import Lia ZifyBool.
Open Scope Z_scope.
Open Scope list_scope.

Definition only_bal (s s' : db) : Prop := s' = set_bal s (bal s').
Lemma only_bal_refl s : only_bal s s.
Proof. unfold only_bal. destruct s; reflexivity. Qed.
Lemma only_bal_trans s1 s2 s3 : only_bal s1 s2 -> only_bal s2 s3 -> only_bal s1 s3.
Proof. unfold only_bal. intros H1 H2. rewrite H2 at 1. rewrite H1. reflexivity. Qed.
Lemma only_bal_set s m : only_bal s (set_bal s m).
Proof. reflexivity. Qed.

(* every cell of s' is between 0 and the cell of s *)
Definition shrunk (s s' : db) : Prop :=
  only_bal s s' /\ forall a t, 0 <= get_bal (bal s) a t -> 0 <= get_bal (bal s') a t <= get_bal (bal s) a t.
Lemma shrunk_refl s : shrunk s s.
Proof. split; [apply only_bal_refl|intros; lia]. Qed.
Lemma shrunk_trans s1 s2 s3 : shrunk s1 s2 -> shrunk s2 s3 -> shrunk s1 s3.
Proof.
  intros [A1 B1] [A2 B2]. split; [eapply only_bal_trans; eauto|]. intros a t H. specialize (B1 a t H). specialize (B2 a t ltac:(lia)). lia.
Qed.
Lemma shrunk_room s s' n : shrunk s s' -> bal_room s n -> bal_room s' n.
Proof. intros [_ B] H a t. specialize (H a t). specialize (B a t ltac:(lia)). lia. Qed.

Lemma sub_ignoring_total s a t v :
  valid_ticker t = true -> 0 <= v -> bal_room s 0 ->
  exists s', sub_ignoring_txerr s a t v = Ok s' /\ shrunk s s'.
Proof.
  intros Ht Hv Hr. unfold sub_ignoring_txerr.
  destruct (Z.ltb_spec (get_bal (bal s) a t) v) as [Hlt|Hge].
  - assert (E : sub_from_balance s a t v = SubInsufficient).
    { unfold sub_from_balance. assert (E0 : (v =? 0) = false) by (specialize (Hr a t); lia). rewrite E0, Ht. cbn [negb].
      assert (E1 : (get_bal (bal s) a t <? v) = true) by lia. rewrite E1. reflexivity. }
    rewrite E. exists s. split; [reflexivity|apply shrunk_refl].
  - destruct (sub_from_balance_total s a t v 0 Ht) as (s' & S1 & _ & S3 & S4); [lia|lia|exact Hr|].
    rewrite S1. exists s'. split; [reflexivity|].
    split; [|intros a' t' H0; rewrite S4, get_bal_insert; destruct (decide _) as [D|D]; [inversion D; subst; lia|lia]].
    apply sub_from_balance_ok in S1 as (_ & _ & _ & ->). apply only_bal_set.
Qed.

Lemma all_tickers_valid : forallb valid_ticker all_tickers = true.
Proof. vm_compute. reflexivity. Qed.

Section WithCfg.
Variable c : cfg.

Lemma nullify_burn_shrinks cm h ts s :
  c_V202EnhanceActivation c <= h -> nonneg cm -> bal_room s 0 -> shrunk s (nullify_burn c cm h ts s).
Proof.
  intros H202 Hcm Hr. rewrite (nullify_burn_new_era_eq c cm h ts s H202).
  pose proof all_tickers_valid as V. rewrite forallb_forall in V.
  apply (fold_left_invariant (shrunk s) (fun t => valid_ticker t = true)); [|apply Forall_forall; exact V|apply shrunk_refl].
  intros s0 t Hs Ht.
  destruct (sub_ignoring_total s0 GlobalBurnAddress t (get_bal (bal cm) GlobalBurnAddress t) Ht (Hcm _ _) (shrunk_room _ _ _ Hs Hr))
    as (s1 & S1 & S2).
  rewrite S1. eapply shrunk_trans; eassumption.
Qed.

Definition mint_total : Z := fold_right (fun m acc => snd m + acc) 0 mint_list.
Lemma mint_tokens_total s n :
  0 <= n -> bal_room s (mint_total + n) ->
  exists s', mint_tokens s = Ok s' /\ only_bal s s' /\ bal_room s' n.
Proof.
  intros Hn Hr. unfold mint_tokens, mint_total in *. unfold ticker in *.
  apply (fold_res_total (fun st k => only_bal s st /\ bal_room st k)
           (fun st m => add_to_balance st GlobalMintAddress (fst m) (snd m)) snd mint_list);
    [intros m Hm; apply mint_list_line, Hm| |exact Hn|split; [apply only_bal_refl|exact Hr]].
  intros st m k Hm Hk [Ho Hr0].
  destruct (add_to_balance_total st GlobalMintAddress (fst m) (snd m) k) as (s1 & A1 & _ & A3 & _);
    [apply mint_list_line, Hm|apply mint_list_line, Hm|exact Hk|exact Hr0|].
  exists s1. split; [exact A1|]. split; [|exact A3]. eapply only_bal_trans; [exact Ho|].
  apply add_to_balance_ok in A1 as (_ & _ & ->). apply only_bal_set.
Qed.

(* the burn of the minted tokens: what the committed database shows at the mint address is taken
   off; nothing is credited, so the budget is 0 *)
Lemma nullify_minted_total cm s :
  nonneg cm -> bal_room s 0 -> exists s', nullify_minted cm s = Ok s' /\ shrunk s s'.
Proof.
  intros Hcm Hr. unfold nullify_minted. unfold ticker in *.
  apply (fold_res_total (fun st _ => shrunk s st)
           (fun st m => sub_ignoring_txerr st GlobalMintAddress (fst m) (get_bal (bal cm) GlobalMintAddress (fst m)))
           (fun _ => 0) mint_list) with (n := 0); [intros; apply Z.le_refl| |apply Z.le_refl|apply shrunk_refl].
  intros st m k Hm _ Hs.
  destruct (sub_ignoring_total st GlobalMintAddress (fst m) (get_bal (bal cm) GlobalMintAddress (fst m))) as (s1 & S1 & S2);
    [apply mint_list_line, Hm|apply Hcm|exact (shrunk_room _ _ _ Hs Hr)|].
  exists s1. split; [exact S1|eapply shrunk_trans; eassumption].
Qed.
End WithCfg.
