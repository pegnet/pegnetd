(* Lemmas/TotalityRange.v — the range of the balance cells is an invariant of the block function: if a
   block is applied, every cell is again in [0, max_int64] ([bal_room _ 0]).  (A cell that would leave
   the range makes the model Stuck with E_OVERFLOW_CELL: AddToBalance checks it.)  Together with
   TotalityInvariant.v: both state hypotheses of the totality theorems hold in every state reached by
   replay; what remains a hypothesis is the room for the credits of the block at hand.

   Like the sign of the cells, the range is kept by every write of a block ([lstep], [bstep]); unlike
   the sign it needs the debits to be non-negative, which is what the steps record. *)
From Model Require Import Obs.
From Lemmas Require Import DbLemmas LedgerLemmas BlockLemmas ChainLemmas TotalityLemmas.
From Coq Require Import Lia.
Open Scope Z_scope.

Lemma add_to_balance_range s a t v s' :
  bal_room s 0 -> 0 <= v -> add_to_balance s a t v = Ok s' -> bal_room s' 0.
Proof.
  intros Hn Hv H. apply add_to_balance_iff in H as (_ & _ & K & ->). intros a' t'. cbn [bal set_bal].
  rewrite get_bal_insert. destruct (decide _); [|apply Hn]. specialize (Hn a t). lia.
Qed.
Lemma sub_from_balance_range s a t v s' :
  bal_room s 0 -> 0 <= v -> sub_from_balance s a t v = SubOk s' -> bal_room s' 0.
Proof.
  intros Hn Hv H. apply sub_from_balance_ok in H as (_ & Hr & _ & ->). intros a' t'. cbn [bal set_bal].
  rewrite get_bal_insert. destruct (decide _); [|apply Hn]. specialize (Hn a t). lia.
Qed.

Lemma lwrites_range (K : Prop) rw ex s s' : K -> lwrites K rw ex s s' -> bal_room s 0 -> bal_room s' 0.
Proof.
  intros HK. apply (lwrites_invariant (fun x => bal_room x 0)). clear s s'. intros s s' H Hn.
  destruct (lstep_bal _ _ _ _ _ H) as [E|[(a & t & v & Hv & Ha)|(a & t & v & Hv & Hs)]].
  - exact (bal_room_eq _ _ _ E Hn).
  - eapply add_to_balance_range; eassumption.
  - eapply sub_from_balance_range; [exact Hn|exact (Hv HK)|exact Hs].
Qed.
Section WithCfg.
Variable c : cfg.

(* every applied block leaves every cell in [0, max_int64] *)
Theorem step_block_range cm mem b s' mem' :
  bal_room cm 0 -> step_block c cm mem b = Done (s', mem') -> bal_room s' 0.
Proof.
  intros Hr0 H. pose proof (bal_room_nonneg _ _ Hr0) as Hnn. revert H Hr0. apply (step_block_invariant c (fun x => bal_room x 0)).
  - intros s s0 [? ? Hl|? ? ? Hg|? ? ? ? ? Hr] Hn.
    + eapply (lwrites_range _ true true); [exact Hnn|apply lwrites_step; exact Hl|exact Hn].
    + exact (bal_room_eq _ _ _ (bal_insert_grade _ _ _ _ Hg) Hn).
    + apply insert_rates_shape in Hr as (_ & ? & -> & _). exact Hn.
  - intros s s0 H Hn. exact (bal_room_eq _ _ _ (bal_insert_synced _ _ _ H) Hn).
Qed.

Lemma bal_room_genesis : bal_room genesis 0.
Proof. intros a t. unfold genesis, empty_db, get_bal; cbn. rewrite lookup_empty. cbn. unfold max_int64. lia. Qed.

Theorem replay_range bs s m : replay c genesis empty_cache bs = Done (s, m) -> bal_room s 0.
Proof. apply (replay_invariant c (fun s => bal_room s 0)); [intros; eapply step_block_range; eauto|apply bal_room_genesis]. Qed.
End WithCfg.

Print Assumptions step_block_range.
