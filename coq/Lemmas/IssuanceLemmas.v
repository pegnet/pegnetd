(* Lemmas/IssuanceLemmas.v — C15: scheduled issuance.  Facts about the regenerated tables (by
   computation over the whole table) and about when the scheduled steps fire. *)
From Model Require Import Block.
From Lemmas Require Import LedgerLemmas.
From Gen Require Import Consts.
From Coq Require Import Lia.
Open Scope Z_scope.

Definition dev_pre (d : Z * Z * Z * Z) : Z := let '(_, _, pre, _) := d in pre.
Definition dev_post (d : Z * Z * Z * Z) : Z := let '(_, _, _, post) := d in post.
Definition dev_bits (d : Z * Z * Z * Z) : Z := let '(_, b, _, _) := d in b.
Definition dev_addr (d : Z * Z * Z * Z) : Z := let '(a, _, _, _) := d in a.

(* the developer payouts add up to exactly 2000 PEG x 144 from 2.0.2 on, 2000 PEG before *)
Lemma dev_total_post : fold_right (fun d acc => dev_post d + acc) 0 dev_rewards = PerBlockDevelopers * SnapshotRate.
Proof. vm_compute. reflexivity. Qed.
Lemma dev_total_pre : fold_right (fun d acc => dev_pre d + acc) 0 dev_rewards = PerBlockDevelopers.
Proof. vm_compute. reflexivity. Qed.
(* each amount is the binary64 product the code computes, truncated: uint64((PerBlockDevelopers/100) * pct [* 144]),
   recomputed here with Coq's primitive floats from the percentage's bit pattern *)
Lemma dev_amounts_are_the_float_products :
  forallb (fun d => (dev_pre d =? dev_reward (PerBlockDevelopers / 100) (dev_bits d) false) &&
                    (dev_post d =? dev_reward (PerBlockDevelopers / 100) (dev_bits d) true)) dev_rewards = true.
Proof. vm_compute. reflexivity. Qed.
(* the percentages add up to 100 (as exact binary64 values: all are small integers) *)
Lemma dev_percentages_sum : fold_right (fun d acc => Z_of_f (f_of_bits (dev_bits d)) + acc) 0 dev_rewards = 100.
Proof. vm_compute. reflexivity. Qed.
Lemma dev_addresses_distinct : NoDup (map dev_addr dev_rewards).
Proof. apply has_dup_false_nodup. vm_compute. reflexivity. Qed.

Definition dev_due (c : cfg) (h : Z) : bool := (c_V20DevRewardsHeightActivation c <=? h) && (h mod SnapshotRate =? 0).
Definition snapshot_due (c : cfg) (h : Z) : bool := (c_V20HeightActivation c <=? h) && (h mod SnapshotRate =? 0).
Lemma dev_due_iff c h : dev_due c h = true <-> c_V20DevRewardsHeightActivation c <= h /\ (SnapshotRate | h).
Proof.
  unfold dev_due. rewrite andb_true_iff, Z.leb_le, Z.eqb_eq, Z.mod_divide by discriminate. tauto.
Qed.

(* the mainnet activations of the one-time adjustments are four distinct heights, none of them a
   payout height: each adjustment happens in exactly one block and never coincides with another *)
Lemma mainnet_one_time_heights_distinct :
  NoDup [V20DevRewardsHeightActivation; V202EnhanceActivation; V204EnhanceActivation; V204BurnMintedTokenActivation] /\
  forallb (fun h => negb (h mod SnapshotRate =? 0)) [V20DevRewardsHeightActivation; V202EnhanceActivation; V204EnhanceActivation; V204BurnMintedTokenActivation] = true.
Proof.
  split; [|vm_compute; reflexivity].
  repeat constructor; cbn; intros H; repeat destruct H as [H|H]; try discriminate H; try contradiction.
Qed.

Lemma mint_list_wellformed :
  forallb (fun m => (0 <? snd m) && valid_ticker (fst m) && (snd m <? two63)) mint_list = true /\
  (fix nd (l : list Z) := match l with [] => true | x :: r => negb (existsb (Z.eqb x) r) && nd r end) (map fst mint_list) = true.
Proof. split; vm_compute; reflexivity. Qed.
