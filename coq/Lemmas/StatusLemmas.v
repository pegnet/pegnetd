(* Lemmas/StatusLemmas.v — C08 (bad entries are skipped) and C17 (history status tells the truth,
   paging enumerates every action exactly once). *)
From Model Require Import Ledger.
From Lemmas Require Import DbLemmas.
From Coq Require Import Lia.
Open Scope Z_scope.

Section WithCfg.
Variable c : cfg.

(* an entry that does not decode / validate at this height has no effect at all *)
Lemma invalid_entry_inert h s order e : entry_valid_at c e h = None -> apply_entry c h s order e = Ok s.
Proof. intros H. unfold apply_entry. rewrite H. reflexivity. Qed.
(* an entry whose hash was executed before, or is already recorded (pending or rejected), has no effect *)
Lemma replayed_entry_inert h s order e : is_replay s (e_hash e) = true -> apply_entry c h s order e = Ok s.
Proof. intros H. unfold apply_entry. destruct (entry_valid_at c e h); [rewrite H|]; reflexivity. Qed.
Lemma recorded_entry_inert h s order e : hist_has s (e_hash e) = true -> apply_entry c h s order e = Ok s.
Proof. intros H. unfold apply_entry. destruct (entry_valid_at c e h); [|reflexivity]. destruct (is_replay s (e_hash e)); [reflexivity|]. rewrite H. reflexivity. Qed.
Lemma invalid_held_inert cur rates avgs s e hh : entry_valid_at c e hh = None -> apply_held c cur rates avgs s e hh = Ok (s, false).
Proof. intros H. unfold apply_held. rewrite H. reflexivity. Qed.
Lemma replayed_held_inert cur rates avgs s e hh txs :
  entry_valid_at c e hh = Some txs -> ((c_V20HeightActivation c <=? cur) && has_peg_conversion txs) = false ->
  (exists t, entry_valid_at c e cur = Some t) -> is_replay s (e_hash e) = true ->
  apply_held c cur rates avgs s e hh = Ok (s, false).
Proof. intros H1 H2 [t H3] H4. unfold apply_held. rewrite H1, H2, H3, H4. reflexivity. Qed.

Lemma all_invalid_block_inert h s es :
  Forall (fun e => entry_valid_at c e h = None) es -> apply_tx_block c h s es = Ok s.
Proof.
  unfold apply_tx_block. generalize 0 as i. induction es as [|e es IH]; intros i H; cbn [fold_left snd]; [reflexivity|].
  inversion H as [|? ? He Hes]; subst. cbn [rbind]. rewrite (invalid_entry_inert h s i e He). apply IH; exact Hes.
Qed.

Definition status_of (s : db) (hs : hash) : list Z := map hb_exec (filter (fun r => hb_hash r =? hs) (hist s)).

Lemma status_set_executed s hs code : Forall (fun e => e = code) (status_of (set_executed s hs code) hs).
Proof.
  unfold status_of, set_executed. cbn. induction (hist s) as [|r l IH]; cbn; [constructor|].
  destruct (hb_hash r =? hs) eqn:E; cbn; [rewrite E; constructor; [reflexivity|exact IH]|rewrite E; exact IH].
Qed.

(* a rejected held batch: status = the (negative) reject code, every balance untouched *)
Lemma rejected_held_status cur rates avgs s e hh txs code :
  entry_valid_at c e hh = Some txs -> ((c_V20HeightActivation c <=? cur) && has_peg_conversion txs) = false ->
  (exists t, entry_valid_at c e cur = Some t) -> is_replay s (e_hash e) = false ->
  apply_batch c cur s (e_hash e) txs rates avgs = BRejected code ->
  exists s', apply_held c cur rates avgs s e hh = Ok (s', false) /\ bal s' = bal s /\
             Forall (fun x => x = code) (status_of s' (e_hash e)).
Proof.
  intros H1 H2 [t H3] H4 H5. unfold apply_held. rewrite H1, H2, H3, H4, H5.
  eexists. split; [reflexivity|]. split; [reflexivity|apply status_set_executed].
Qed.

(* a page of the data query: LIMIT lim OFFSET off over a fixed order *)
Definition page {A} (l : list A) (off lim : nat) : list A := firstn lim (skipn off l).
Fixpoint pages {A} (fuel : nat) (l : list A) (off lim : nat) : list A :=
  match fuel with
  | O => []
  | S k => match page l off lim with
           | [] => []
           | p => p ++ pages k l (off + lim) lim
           end
  end.

Lemma page_all {A} (l : list A) lim : (0 < lim)%nat -> forall fuel off,
  (length l - off <= fuel * lim)%nat -> pages fuel l off lim = skipn off l.
Proof.
  intros Hl. induction fuel as [|k IH]; intros off Hf.
  - cbn in Hf. cbn. symmetry. apply skipn_all2. lia.
  - cbn [pages]. unfold page at 1.
    destruct (firstn lim (skipn off l)) as [|x p] eqn:E.
    + (* an empty page: nothing is left *)
      destruct (skipn off l) as [|y r] eqn:Es; [reflexivity|]. destruct lim; [lia|discriminate].
    + rewrite <- E. rewrite IH.
      * apply firstn_skipn_next.
      * assert (length (firstn lim (skipn off l)) = Nat.min lim (length l - off)) by (rewrite firstn_length, skipn_length; reflexivity).
        destruct (Nat.le_gt_cases (length l) (off + lim)); lia.
Qed.

(* following nextoffset page by page returns every action exactly once, in order *)
Theorem paging_exact {A} (l : list A) lim : (0 < lim)%nat -> pages (S (length l)) l 0 lim = l.
Proof. intros Hl. rewrite (page_all l lim Hl); [reflexivity|]. cbn. nia. Qed.
End WithCfg.
