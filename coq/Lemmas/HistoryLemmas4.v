(* Lemmas/HistoryLemmas4.v — the legacy PEG bank: batches that consist only of PEG requests.
   recordBatch with deferred PEG requests: the row keeps to_amount 0 and stands for the debit alone;
   recordPegnetRequests (second pass): yield and refund are written to the row and credited.
   Both are also stated for the accounting predicate hist_ok; a chain theorem over "clean or pure PEG"
   batches is not among them (see bank_pays_a_dropped_peg_batch below for why). *)
From Model Require Import Obs Examples.
From Lemmas Require Import ArithLemmas DbLemmas LedgerLemmas ChainLemmas
     StatusLemmas HistoryLemmas HistoryLemmas2 HistoryLemmas3.
From Gen Require Import Consts.
From Coq Require Import Lia.
Open Scope Z_scope.
Open Scope list_scope.

Section FirstPass.
Variable c : cfg.

Definition deferred (h : Z) (t : tx) : bool := (c_PegnetConversionLimitActivation c <=? h) && is_peg_request t.
(* the row recordBatch leaves: a deferred PEG request keeps the row as inserted *)
Definition exec_row2 (h : Z) (rates avgs : gmap ticker Z) (hs : hash) (idx : Z) (t : tx) : htx :=
  if deferred h t then pend_row hs idx t else exec_row c h rates avgs hs idx t.
Fixpoint exec_rows2 (h : Z) (rates avgs : gmap ticker Z) (hs : hash) (idx : Z) (txs : list tx) : list htx :=
  match txs with [] => [] | t :: rest => exec_row2 h rates avgs hs idx t :: exec_rows2 h rates avgs hs (idx + 1) rest end.

Lemma exec_rows2_from h rates avgs hs txs : forall idx,
  exec_rows2 h rates avgs hs idx txs = rows_from (exec_row2 h rates avgs hs) idx txs.
Proof. induction txs as [|t txs IH]; intros idx; cbn [exec_rows2 rows_from]; [reflexivity|rewrite IH; reflexivity]. Qed.

Lemma exec_rows2_no_deferred h rates avgs hs txs : forall idx,
  no_deferred c h txs = true -> exec_rows2 h rates avgs hs idx txs = exec_rows c h rates avgs hs idx txs.
Proof.
  intros idx Hnd. rewrite exec_rows2_from, exec_rows_from. apply rows_from_ext. intros i t Hin.
  unfold exec_row2, deferred. rewrite (no_deferred_in c h txs t Hnd Hin). reflexivity.
Qed.
Lemma exec_rows2_all_deferred h rates avgs hs txs : forall idx,
  forallb (deferred h) txs = true -> exec_rows2 h rates avgs hs idx txs = pend_rows hs idx txs.
Proof.
  intros idx H. rewrite forallb_forall in H. rewrite exec_rows2_from, pend_rows_from. apply rows_from_ext. intros i t Hin.
  unfold exec_row2. rewrite (H t Hin). reflexivity.
Qed.

(* recordBatch without the no-deferral condition *)
Lemma record_txs_history2 h hs rates avgs txs : forall idx s s' pre,
  record_txs c h hs rates avgs idx txs s = Ok s' ->
  convs_fit c h rates avgs txs = true ->
  rows_of hs (htxs s) = pre ++ pend_rows hs idx txs ->
  Forall (fun r => ht_index r < idx) pre ->
  rows_of hs (htxs s') = pre ++ exec_rows2 h rates avgs hs idx txs /\
  rows_not hs (htxs s') = rows_not hs (htxs s) /\
  hist s' = match txs with [] => hist s | _ => mark_exec hs h (hist s) end /\
  (forall a t, get_bal (bal s') a t =
               get_bal (bal s) a t + rows_effect (burn_addr c h) a t (exec_rows2 h rates avgs hs idx txs)).
Proof.
  intros idx s s' pre. rewrite exec_rows2_from.
  exact (record_txs_rows c h hs rates avgs (exec_row2 h rates avgs hs) txs (fun _ _ _ => eq_refl) idx s s' pre).
Qed.
End FirstPass.

Definition sum_over {X} (f : X -> Z) (l : list X) : Z := fold_right (fun x acc => f x + acc) 0 l.

Lemma sum_over_cons {X} (f : X -> Z) x l : sum_over f (x :: l) = f x + sum_over f l.
Proof. reflexivity. Qed.
Lemma sum_over_ext_in {X} (f g : X -> Z) l : (forall x, In x l -> f x = g x) -> sum_over f l = sum_over g l.
Proof. apply fold_sum_ext_in. Qed.
Lemma sum_over_0 {X} (f : X -> Z) l : (forall x, f x = 0) -> sum_over f l = 0.
Proof. intros H. induction l as [|x l IH]; [reflexivity|]. rewrite sum_over_cons, H, IH. reflexivity. Qed.
(* the two sums of the accounting are of this shape *)
Lemma rows_effect_sum_over burn a t l : rows_effect burn a t l = sum_over (fun r => effect_on a t (row_effect burn r)) l.
Proof. reflexivity. Qed.

(* SELECT and UPDATE of pn_history_transaction by primary key *)
Definition rows_at (hs : hash) (idx : Z) (l : list htx) : list htx := filter (key_at hs idx) l.
Definition upd_at (hs : hash) (idx : Z) (f : htx -> htx) (l : list htx) : list htx := map (upd (key_at hs idx) f) l.
Definition keeps_key (f : htx -> htx) : Prop := forall r, ht_hash (f r) = ht_hash r /\ ht_index (f r) = ht_index r.
(* what SetTransactionHistoryPEGConvertedRequestAmount writes into a row *)
Definition set_paid (amt : Z) (out : list (addr * Z)) (r : htx) : htx :=
  {| ht_hash := ht_hash r; ht_index := ht_index r; ht_action := ht_action r; ht_from := ht_from r;
     ht_from_asset := ht_from_asset r; ht_from_amount := ht_from_amount r; ht_to_asset := ht_to_asset r;
     ht_to_amount := amt; ht_outputs := out |}.

Lemma htxs_set_peg s hs i amt out : htxs (set_peg_request_amounts s hs i amt out) = upd_at hs i (set_paid amt out) (htxs s).
Proof. reflexivity. Qed.

Lemma upd_at_id hs idx l : upd_at hs idx (fun r => r) l = l.
Proof.
  unfold upd_at. rewrite <- (map_id l) at 2. apply map_ext. intros r. unfold upd. destruct (key_at hs idx r); reflexivity.
Qed.
Lemma rows_at_upd hs' idx' hs idx f l :
  keeps_key f -> rows_at hs' idx' (upd_at hs idx f l) = upd_at hs idx f (rows_at hs' idx' l).
Proof. intros Hf. apply upd_filter. intros r. unfold key_at. destruct (Hf r) as [-> ->]. reflexivity. Qed.
Lemma rows_at_upd_same hs idx f l : keeps_key f -> rows_at hs idx (upd_at hs idx f l) = map f (rows_at hs idx l).
Proof.
  intros Hf. rewrite rows_at_upd by exact Hf. unfold upd_at, rows_at. apply map_ext_in. intros r Hr.
  apply filter_In in Hr as [_ Hr]. unfold upd. rewrite Hr. reflexivity.
Qed.
Lemma rows_at_upd_other (k k' : txid) f l :
  keeps_key f -> k' <> k -> rows_at (fst k') (snd k') (upd_at (fst k) (snd k) f l) = rows_at (fst k') (snd k') l.
Proof.
  intros Hf N. rewrite rows_at_upd by exact Hf. unfold upd_at, rows_at. apply upd_id_on, Forall_forall. intros r Hr.
  apply filter_In in Hr as [_ Hr]. unfold key_at in *. apply andb_prop in Hr as [E1 E2]. apply Z.eqb_eq in E1, E2.
  destruct (Z.eqb_spec (ht_hash r) (fst k)), (Z.eqb_spec (ht_index r) (snd k)); try reflexivity.
  exfalso. apply N. destruct k, k'. cbn [fst snd] in *. congruence.
Qed.
Lemma rows_of_upd_at_other hs idx f l hs' : keeps_key f -> hs' <> hs -> rows_of hs' (upd_at hs idx f l) = rows_of hs' l.
Proof.
  intros Hf N. unfold upd_at. rewrite <- (rows_of_via_not hs' hs _ N), (rows_not_upd hs idx f l (fun r => proj1 (Hf r))).
  apply rows_of_via_not; exact N.
Qed.
Lemma rows_at_of hs idx l : rows_at hs idx l = rows_at hs idx (rows_of hs l).
Proof.
  unfold rows_at, rows_of, key_at. induction l as [|r l IH]; [reflexivity|]. cbn [filter].
  destruct (ht_hash r =? hs) eqn:E; cbn [andb filter]; [rewrite E; cbn [andb]; destruct (ht_index r =? idx); [f_equal|]; exact IH|exact IH].
Qed.
Lemma sum_over_upd_at (g : htx -> Z) hs idx f l :
  sum_over g (upd_at hs idx f l) = sum_over g l + sum_over (fun r => g (f r) - g r) (rows_at hs idx l).
Proof.
  unfold upd_at, rows_at. induction l as [|r l IH]; [reflexivity|]. cbn [map filter]. unfold upd at 1.
  destruct (key_at hs idx r); rewrite !sum_over_cons, IH; lia.
Qed.

(* A series of updates by key, [f x] at [key x] for the [x] of a list.  When no key occurs twice and no update
   changes a key, each update meets the rows of its key as they were at the start and nobody else's. *)
Section UpdAll.
Context {X : Type} (key : X -> txid) (f : X -> htx -> htx).
Hypothesis Hf : forall x, keeps_key (f x).

Definition upd_all (xs : list X) (l : list htx) : list htx :=
  fold_left (fun l x => upd_at (fst (key x)) (snd (key x)) (f x) l) xs l.
Lemma upd_all_cons x xs l : upd_all (x :: xs) l = upd_all xs (upd_at (fst (key x)) (snd (key x)) (f x) l).
Proof. reflexivity. Qed.

Lemma upd_all_other xs : forall l k,
  ~ In k (map key xs) -> rows_at (fst k) (snd k) (upd_all xs l) = rows_at (fst k) (snd k) l.
Proof.
  induction xs as [|x xs IH]; intros l k Hk; [reflexivity|].
  rewrite upd_all_cons, IH by (intros Hin; apply Hk; right; exact Hin).
  apply rows_at_upd_other; [apply Hf|]. intros E. apply Hk. left. symmetry. exact E.
Qed.
Lemma upd_all_same xs : forall l x,
  NoDup (map key xs) -> In x xs ->
  rows_at (fst (key x)) (snd (key x)) (upd_all xs l) = map (f x) (rows_at (fst (key x)) (snd (key x)) l).
Proof.
  induction xs as [|y xs IH]; intros l x Hnd Hin; [contradiction|].
  cbn [map] in Hnd. apply NoDup_cons_iff in Hnd as [Hy Hnd]. rewrite upd_all_cons. destruct Hin as [<-|Hin].
  - rewrite (upd_all_other xs _ (key y) Hy). apply rows_at_upd_same, Hf.
  - rewrite (IH _ x Hnd Hin), rows_at_upd_other; [reflexivity|apply Hf|].
    intros E. apply Hy. rewrite <- E. apply in_map. exact Hin.
Qed.
Lemma upd_all_rows_of xs hs : forall l,
  (forall x, In x xs -> fst (key x) <> hs) -> rows_of hs (upd_all xs l) = rows_of hs l.
Proof.
  induction xs as [|x xs IH]; intros l Hhs; [reflexivity|].
  rewrite upd_all_cons, IH by (intros y Hy; apply Hhs; right; exact Hy).
  apply rows_of_upd_at_other; [apply Hf|]. intros E. exact (Hhs x (or_introl eq_refl) (eq_sym E)).
Qed.
Lemma upd_all_sum (g : htx -> Z) xs : forall l,
  NoDup (map key xs) ->
  sum_over g (upd_all xs l) =
  sum_over g l + sum_over (fun x => sum_over (fun r => g (f x r) - g r) (rows_at (fst (key x)) (snd (key x)) l)) xs.
Proof.
  induction xs as [|x xs IH]; intros l Hnd; [unfold upd_all, sum_over; cbn [fold_left fold_right]; lia|].
  cbn [map] in Hnd. apply NoDup_cons_iff in Hnd as [Hx Hnd].
  rewrite upd_all_cons, (IH _ Hnd), sum_over_upd_at, sum_over_cons.
  rewrite (sum_over_ext_in _ (fun y => sum_over (fun r => g (f y r) - g r) (rows_at (fst (key y)) (snd (key y)) l)) xs); [lia|].
  intros y Hy. rewrite rows_at_upd_other; [reflexivity|apply Hf|]. intros E. apply Hx. rewrite <- E. apply in_map. exact Hy.
Qed.
End UpdAll.

Section SecondPass.
Variable c : cfg.

Lemma refund_range pip10 inp y ir pr : 0 <= ir -> 0 <= pr -> 0 <= refund pip10 inp y ir pr <= max_int64.
Proof.
  intros Hi Hp. unfold refund. destruct (convert pip10 _ pr pr ir ir) eqn:E; [|unfold max_int64; lia].
  apply (convert_range _ _ _ _ _ _ _ Hp Hp Hi Hi E).
Qed.

Definition refund_of (h : Z) (rates : gmap ticker Z) (t : tx) (yield : Z) : Z :=
  refund (c_PIP10AverageActivation c <=? h) (tx_amt t) yield (rate_of rates (tx_type t)) (rate_of rates (tx_conv t)).
(* the row of a PEG request after the second pass *)
Definition paid_row (h : Z) (rates : gmap ticker Z) (hs : hash) (idx : Z) (t : tx) (yield : Z) : htx :=
  set_paid yield [(tx_addr t, refund_of h rates t yield)] (pend_row hs idx t).

Lemma row_effect_paid burn h rates hs idx t yield :
  is_conversion t = true ->
  row_effect burn (paid_row h rates hs idx t yield) =
  [((tx_addr t, tx_type t), - tx_amt t); ((tx_addr t, tx_conv t), yield); ((tx_addr t, tx_type t), refund_of h rates t yield)].
Proof. intros E. unfold paid_row, pend_row. rewrite E. reflexivity. Qed.

Definition found (reqs : list peg_req) (p : txid * Z) : option peg_req :=
  find (fun r0 => txid_eqb (pr_txid r0) (fst p)) reqs.
(* what one payout adds to a sum over the table / to a cell *)
Definition pay_delta (h : Z) (rates : gmap ticker Z) (reqs : list peg_req) (g : htx -> Z) (p : txid * Z) : Z :=
  match found reqs p with
  | Some r => g (paid_row h rates (fst (fst p)) (snd (fst p)) (pr_tx r) (snd p)) - g (pend_row (fst (fst p)) (snd (fst p)) (pr_tx r))
  | None => 0
  end.
Definition pay_credit (h : Z) (rates : gmap ticker Z) (reqs : list peg_req) (a : addr) (t : ticker) (p : txid * Z) : Z :=
  match found reqs p with
  | Some r => (if (tx_addr (pr_tx r) =? a) && (tx_conv (pr_tx r) =? t) then snd p else 0)
              + (if (tx_addr (pr_tx r) =? a) && (tx_type (pr_tx r) =? t) then refund_of h rates (pr_tx r) (snd p) else 0)
  | None => 0
  end.
(* what one payout does to the row with its txid: nothing when the txid is not among the requests *)
Definition pay_write (h : Z) (rates : gmap ticker Z) (reqs : list peg_req) (p : txid * Z) (r0 : htx) : htx :=
  match found reqs p with
  | Some r => set_paid (snd p) [(tx_addr (pr_tx r), refund_of h rates (pr_tx r) (snd p))] r0
  | None => r0
  end.

Lemma found_in reqs p r : found reqs p = Some r -> In r reqs /\ pr_txid r = fst p.
Proof. unfold found. intros H. apply find_some in H as [Hin H]. apply txid_eqb_eq in H. auto. Qed.
Lemma pay_write_keeps_key h rates reqs p : keeps_key (pay_write h rates reqs p).
Proof. intros r. unfold pay_write. destruct (found reqs p); split; reflexivity. Qed.

(* what is credited for a PEG request is the change of what its row stands for, read with any burn address *)
Lemma pay_credit_delta h rates reqs burn a t p :
  (forall r, found reqs p = Some r -> is_peg_request (pr_tx r) = true) ->
  pay_credit h rates reqs a t p = pay_delta h rates reqs (fun r => effect_on a t (row_effect burn r)) p.
Proof.
  intros Hq. unfold pay_credit, pay_delta. destruct (found reqs p) as [r|]; [|reflexivity].
  pose proof (is_peg_request_is_conversion _ (Hq r eq_refl)) as Ec.
  rewrite (row_effect_paid _ _ _ _ _ _ _ Ec), (row_effect_pend_conv _ _ _ _ Ec), !effect_on_cons, !effect_on_nil. cbn [fst snd].
  destruct ((tx_addr (pr_tx r) =? a) && (tx_type (pr_tx r) =? t)), ((tx_addr (pr_tx r) =? a) && (tx_conv (pr_tx r) =? t)); lia.
Qed.

(* one payout: the row is rewritten, yield and refund are credited (the refund is below 2^63, so the
   uint64 conversion keeps it), nothing else changes *)
Lemma pay_request_step h rates reqs s p s' :
  pay_request c h rates reqs s p = Ok s' ->
  (forall t, 0 <= rate_of rates t) ->
  htxs s' = upd_at (fst (fst p)) (snd (fst p)) (pay_write h rates reqs p) (htxs s) /\
  (forall a t, get_bal (bal s') a t = get_bal (bal s) a t + pay_credit h rates reqs a t p) /\
  hist s' = hist s /\ rel s' = rel s /\ holding s' = holding s /\ Db.rates s' = Db.rates s.
Proof.
  intros H Hr. unfold pay_request in H. unfold pay_write, pay_credit, found. destruct (find _ reqs) as [r|].
  - cbv zeta in H. apply rbind_ok in H as (s2 & H1 & H2). fold (refund_of h rates (pr_tx r) (snd p)) in H1, H2.
    rewrite wrap64_small in H2.
    2:{ pose proof (refund_range (c_PIP10AverageActivation c <=? h) (tx_amt (pr_tx r)) (snd p) _ _
                                 (Hr (tx_type (pr_tx r))) (Hr (tx_conv (pr_tx r)))) as Rg.
        unfold refund_of. unfold max_int64, two64 in *. lia. }
    split; [|split].
    + apply add_to_balance_ok in H1 as (_ & _ & ->). apply add_to_balance_ok in H2 as (_ & _ & ->). apply htxs_set_peg.
    + intros a t. rewrite (get_bal_add _ _ _ _ _ a t H2), (get_bal_add _ _ _ _ _ a t H1), <- Z.add_assoc. reflexivity.
    + apply add_to_balance_ok in H1 as (_ & _ & ->). apply add_to_balance_ok in H2 as (_ & _ & ->). repeat split.
  - inversion H; subst s'. split; [symmetry; apply upd_at_id|]. split; [intros a t; symmetry; apply Z.add_0_r|repeat split].
Qed.

(* all payouts: the table is rewritten key by key, every cell receives the sum of the credits *)
Lemma pay_fold h rates reqs ps s s' :
  fold_left (fun r p => let? s0 := r in pay_request c h rates reqs s0 p) ps (Ok s) = Ok s' ->
  (forall t, 0 <= rate_of rates t) ->
  htxs s' = upd_all fst (pay_write h rates reqs) ps (htxs s) /\
  (forall a t, get_bal (bal s') a t = get_bal (bal s) a t + sum_over (pay_credit h rates reqs a t) ps) /\
  hist s' = hist s /\ rel s' = rel s /\ holding s' = holding s /\ Db.rates s' = Db.rates s.
Proof.
  intros H Hr. split; [|split].
  - revert s H. induction ps as [|p ps IH]; intros s H; [inversion H; reflexivity|].
    apply fold_res_cons in H as (s1 & E & H).
    rewrite upd_all_cons, (IH s1 H), (proj1 (pay_request_step _ _ _ _ _ _ E Hr)). reflexivity.
  - intros a t. revert s s' H. apply (fold_res_sum (fun x => get_bal (bal x) a t) (pay_credit h rates reqs a t)).
    intros s0 p s1 _ E. apply (pay_request_step _ _ _ _ _ _ E Hr).
  - refine (fold_res_invariant (fun x => hist x = hist s /\ rel x = rel s /\ holding x = holding s /\ Db.rates x = Db.rates s) _ _ _ s s' _ H); [|auto].
    intros s0 p s1 HP E. destruct (pay_request_step _ _ _ _ _ _ E Hr) as (_ & _ & F1 & F2 & F3 & F4).
    rewrite F1, F2, F3, F4. exact HP.
Qed.

Lemma rows_at_pend_lt hs txs : forall i j, j < i -> rows_at hs j (pend_rows hs i txs) = [].
Proof.
  induction txs as [|t txs IH]; intros i j Hlt; [reflexivity|]. cbn [pend_rows]. unfold rows_at, key_at. cbn [filter].
  destruct (pend_row_keys hs i t) as [-> ->]. destruct (Z.eqb_spec i j); [lia|]. rewrite andb_false_r. apply IH. lia.
Qed.
Lemma reqs_of_batch_index h rates avgs hs txs : forall i r, In r (reqs_of_batch c h rates avgs hs i txs) -> i <= snd (pr_txid r).
Proof.
  induction txs as [|t txs IH]; intros i r Hin; cbn [reqs_of_batch] in Hin; [contradiction|].
  destruct Hin as [<-|Hin]; [cbn; lia|]. specialize (IH _ _ Hin). lia.
Qed.
(* a request of a batch carries the hash of the batch, the index of its transaction, and among the
   rows as inserted exactly one has that index *)
Lemma reqs_of_batch_spec h rates avgs hs txs : forall i r,
  In r (reqs_of_batch c h rates avgs hs i txs) ->
  fst (pr_txid r) = hs /\ In (pr_tx r) txs /\
  rows_at hs (snd (pr_txid r)) (pend_rows hs i txs) = [pend_row hs (snd (pr_txid r)) (pr_tx r)].
Proof.
  induction txs as [|t txs IH]; intros i r Hin; cbn [reqs_of_batch] in Hin; [contradiction|].
  cbn [pend_rows]. unfold rows_at, key_at. cbn [filter]. destruct (pend_row_keys hs i t) as [-> ->]. rewrite Z.eqb_refl. cbn [andb].
  destruct Hin as [<-|Hin]; cbn [pr_txid pr_tx fst snd].
  - rewrite Z.eqb_refl. split; [reflexivity|]. split; [left; reflexivity|]. f_equal. apply (rows_at_pend_lt hs txs (i + 1) i). lia.
  - destruct (IH (i + 1) r Hin) as (E1 & E2 & E3). split; [exact E1|]. split; [right; exact E2|].
    pose proof (reqs_of_batch_index _ _ _ _ _ _ _ Hin) as Hge.
    destruct (Z.eqb_spec i (snd (pr_txid r))); [lia|]. exact E3.
Qed.

Definition reqs_of (h : Z) (rates avgs : gmap ticker Z) (batches : list (hash * list tx)) : list peg_req :=
  flat_map (fun b => reqs_of_batch c h rates avgs (fst b) 0 (snd b)) batches.
Definition pays_of (h : Z) (rates avgs : gmap ticker Z) (batches : list (hash * list tx)) (bankamt : Z) : list (txid * Z) :=
  payouts bankamt (map (fun r => (pr_txid r, pr_amt r)) (reqs_of h rates avgs batches)).
Definition peg_batch_ready (s : db) (b : hash * list tx) : Prop :=
  rows_of (fst b) (htxs s) = pend_rows (fst b) 0 (snd b) /\ forallb is_peg_request (snd b) = true.

(* a request of ready batches: its row is as inserted, it is a PEG request, its hash is that of one of the batches *)
Lemma req_ready h rates avgs batches s r :
  Forall (peg_batch_ready s) batches -> In r (reqs_of h rates avgs batches) ->
  rows_at (fst (pr_txid r)) (snd (pr_txid r)) (htxs s) = [pend_row (fst (pr_txid r)) (snd (pr_txid r)) (pr_tx r)] /\
  is_peg_request (pr_tx r) = true /\ In (fst (pr_txid r)) (map fst batches).
Proof.
  intros Hb Hin. unfold reqs_of in Hin. apply in_flat_map in Hin as (b & Hbin & Hin).
  rewrite Forall_forall in Hb. destruct (Hb b Hbin) as [R1 R2].
  destruct (reqs_of_batch_spec _ _ _ _ _ _ _ Hin) as (E1 & E2 & E3).
  split; [rewrite E1, rows_at_of, R1; exact E3|].
  split; [rewrite forallb_forall in R2; apply R2; exact E2|rewrite E1; apply in_map; exact Hbin].
Qed.
Lemma found_ready h rates avgs batches s p r :
  Forall (peg_batch_ready s) batches -> found (reqs_of h rates avgs batches) p = Some r ->
  rows_at (fst (fst p)) (snd (fst p)) (htxs s) = [pend_row (fst (fst p)) (snd (fst p)) (pr_tx r)] /\
  is_peg_request (pr_tx r) = true /\ In (fst (fst p)) (map fst batches).
Proof. intros Hb Ef. apply found_in in Ef as [Hin <-]. exact (req_ready h rates avgs batches s r Hb Hin). Qed.

(* THE per-writer theorem for the second pass, for any enumeration [order] of the payouts map that neither
   repeats nor invents a transaction id *)
Theorem record_peg_requests_history order h s batches rates avgs bankamt bh s' :
  record_peg_requests_ord c order h s batches rates avgs bankamt bh = Ok s' ->
  (forall t, 0 <= rate_of rates t) ->
  NoDup (map fst (order (pays_of h rates avgs batches bankamt))) ->
  (forall p, In p (order (pays_of h rates avgs batches bankamt)) -> In (fst p) (map pr_txid (reqs_of h rates avgs batches))) ->
  Forall (peg_batch_ready s) batches ->
  let reqs := reqs_of h rates avgs batches in
  let ps := order (pays_of h rates avgs batches bankamt) in
  hist s' = hist s /\ rel s' = rel s /\ holding s' = holding s /\ Db.rates s' = Db.rates s /\
  (* rows of other hashes are untouched *)
  (forall hs, ~ In hs (map fst batches) -> rows_of hs (htxs s') = rows_of hs (htxs s)) /\
  (* exactly what is written: yield into to_amount, the refund as the single output *)
  (forall p r, In p ps -> found reqs p = Some r ->
     rows_at (fst (fst p)) (snd (fst p)) (htxs s') = [paid_row h rates (fst (fst p)) (snd (fst p)) (pr_tx r) (snd p)]) /\
  (* what is credited *)
  (forall a t, get_bal (bal s') a t = get_bal (bal s) a t + sum_over (pay_credit h rates reqs a t) ps) /\
  (* every cell moves by exactly the change of what the rows stand for *)
  (forall burn a t, get_bal (bal s') a t - rows_effect burn a t (htxs s') = get_bal (bal s) a t - rows_effect burn a t (htxs s)) /\
  (* any sum over the table moves by the per-row differences (hist_ok_record_peg_requests takes the status-weighted sum) *)
  (forall g : htx -> Z, sum_over g (htxs s') = sum_over g (htxs s) + sum_over (pay_delta h rates reqs g) ps).
Proof.
  intros H Hr Hnd Hkeys Hb reqs ps.
  apply record_peg_requests_ord_inv in H as (_ & s1 & H1 & H2). fold reqs ps in H1.
  (* the bank update touches no other table *)
  assert (hist s' = hist s1 /\ rel s' = rel s1 /\ holding s' = holding s1 /\ Db.rates s' = Db.rates s1 /\
          htxs s' = htxs s1 /\ bal s' = bal s1) as (U1 & U2 & U3 & U4 & U5 & U6)
    by (destruct (_ <=? bh); [apply update_bank_ok in H2 as (? & ? & ? & _ & ->)|subst s']; repeat split).
  destruct (pay_fold h rates reqs ps s s1 H1 Hr) as (T & B & F1 & F2 & F3 & F4).
  rewrite U1, U2, U3, U4, U5, U6, T. clear U1 U2 U3 U4 U5 U6 T.
  pose proof (pay_write_keeps_key h rates reqs) as W.
  assert (S : forall g : htx -> Z,
    sum_over g (upd_all fst (pay_write h rates reqs) ps (htxs s)) = sum_over g (htxs s) + sum_over (pay_delta h rates reqs g) ps).
  { intros g. rewrite (upd_all_sum fst _ W g ps _ Hnd). f_equal. apply sum_over_ext_in. intros p _.
    unfold pay_delta, pay_write. destruct (found reqs p) as [r|] eqn:Ef; [|apply sum_over_0; intros r; lia].
    rewrite (proj1 (found_ready h rates avgs batches s p r Hb Ef)), sum_over_cons. unfold paid_row, sum_over. cbn [fold_right]. lia. }
  split; [exact F1|]. split; [exact F2|]. split; [exact F3|]. split; [exact F4|].
  split.
  { intros hs Hhs. apply (upd_all_rows_of fst _ W). intros p Hin E. apply Hhs.
    destruct (proj1 (in_map_iff _ _ _) (Hkeys p Hin)) as (r & Er & Hrin).
    destruct (req_ready h rates avgs batches s r Hb Hrin) as (_ & _ & Hin2). rewrite Er, E in Hin2. exact Hin2. }
  split.
  { intros p r Hin Ef. rewrite (upd_all_same fst _ W ps _ p Hnd Hin), (proj1 (found_ready h rates avgs batches s p r Hb Ef)).
    unfold pay_write. rewrite Ef. reflexivity. }
  split; [exact B|]. split; [|exact S].
  intros burn a t. rewrite (B a t), !rows_effect_sum_over, (S (fun r => effect_on a t (row_effect burn r))).
  rewrite (sum_over_ext_in _ _ ps (fun p _ => pay_credit_delta h rates reqs burn a t p
             (fun r Ef => proj1 (proj2 (found_ready h rates avgs batches s p r Hb Ef))))).
  lia.
Qed.

(* the model's own enumeration (identity): the two conditions on [order] hold by themselves *)
Lemma pays_of_keys h s batches rates avgs bankamt bh s' :
  record_peg_requests c h s batches rates avgs bankamt bh = Ok s' ->
  NoDup (map fst (pays_of h rates avgs batches bankamt)) /\
  forall p, In p (pays_of h rates avgs batches bankamt) -> In (fst p) (map pr_txid (reqs_of h rates avgs batches)).
Proof.
  intros H. apply (record_peg_requests_ord_inv c (fun l => l)) in H as (Hnd & _).
  assert (Hk : map fst (pays_of h rates avgs batches bankamt) = map pr_txid (reqs_of h rates avgs batches))
    by (unfold pays_of; rewrite payouts_keys, map_map; reflexivity).
  rewrite Hk. split; [apply has_dup_txid_nodup; exact Hnd|]. intros p Hin. rewrite <- Hk. apply in_map. exact Hin.
Qed.
Corollary record_peg_requests_history_id h s batches rates avgs bankamt bh s' :
  record_peg_requests c h s batches rates avgs bankamt bh = Ok s' ->
  (forall t, 0 <= rate_of rates t) -> Forall (peg_batch_ready s) batches ->
  hist s' = hist s /\ rel s' = rel s /\ holding s' = holding s /\ Db.rates s' = Db.rates s /\
  (forall hs, ~ In hs (map fst batches) -> rows_of hs (htxs s') = rows_of hs (htxs s)) /\
  (forall burn a t, get_bal (bal s') a t - rows_effect burn a t (htxs s') = get_bal (bal s) a t - rows_effect burn a t (htxs s)) /\
  (forall g : htx -> Z, sum_over g (htxs s') = sum_over g (htxs s) +
                        sum_over (pay_delta h rates (reqs_of h rates avgs batches) g) (pays_of h rates avgs batches bankamt)).
Proof.
  intros H Hr Hb. destruct (pays_of_keys _ _ _ _ _ _ _ _ H) as [Hnd Hkeys].
  destruct (record_peg_requests_history (fun l => l) h s batches rates avgs bankamt bh s' H Hr Hnd Hkeys Hb)
    as (R1 & R2 & R3 & R4 & R5 & _ & _ & R8 & R9).
  repeat (split; [assumption|]). exact R9.
Qed.

Lemma sum_counted_sum_over l a t rows : sum_counted c l a t rows = sum_over (counted c l a t) rows.
Proof. reflexivity. Qed.
End SecondPass.

Section FirstPassBatch.
Variable c : cfg.
(* recordBatch from the rows exactly as insert_history leaves them, deferred PEG requests allowed *)
Theorem record_batch_history2 h hs rates avgs txs s s' :
  record_batch c h hs rates avgs txs s = Ok s' ->
  convs_fit c h rates avgs txs = true ->
  rows_of hs (htxs s) = map fst (history_rows_of hs txs) ->
  rows_of hs (htxs s') = exec_rows2 c h rates avgs hs 0 txs /\
  rows_not hs (htxs s') = rows_not hs (htxs s) /\
  hist s' = match txs with [] => hist s | _ => mark_exec hs h (hist s) end /\
  (forall a t, get_bal (bal s') a t =
               get_bal (bal s) a t + rows_effect (burn_addr c h) a t (rows_of hs (htxs s'))).
Proof.
  intros H Hfit Hrows. rewrite history_rows_of_pend in Hrows.
  destruct (record_txs_history2 c h hs rates avgs txs 0 s s' [] H Hfit Hrows (Forall_nil _)) as (R1 & R2 & R3 & R4).
  cbn [app] in R1. rewrite R1. auto.
Qed.
(* a pure PEG batch in the bank era: only debits, the rows stay as inserted *)
Corollary record_batch_history_pure_peg h hs rates avgs txs s s' :
  record_batch c h hs rates avgs txs s = Ok s' ->
  c_PegnetConversionLimitActivation c <= h -> forallb is_peg_request txs = true ->
  convs_fit c h rates avgs txs = true ->
  rows_of hs (htxs s) = map fst (history_rows_of hs txs) ->
  rows_of hs (htxs s') = pend_rows hs 0 txs /\
  (forall a t, get_bal (bal s') a t = get_bal (bal s) a t + rows_effect (burn_addr c h) a t (pend_rows hs 0 txs)).
Proof.
  intros H Hh Hp Hfit Hrows. destruct (record_batch_history2 h hs rates avgs txs s s' H Hfit Hrows) as (R1 & _ & _ & R4).
  assert (E : exec_rows2 c h rates avgs hs 0 txs = pend_rows hs 0 txs).
  { apply exec_rows2_all_deferred. apply forallb_forall. intros t Ht. rewrite forallb_forall in Hp. unfold deferred.
    rewrite (Hp t Ht). destruct (Z.leb_spec (c_PegnetConversionLimitActivation c) h); [reflexivity|lia]. }
  rewrite E in R1. split; [exact R1|]. intros a t. rewrite (R4 a t), R1. reflexivity.
Qed.
End FirstPassBatch.

Section BankAccounting.
Variable c : cfg.

(* the second pass keeps the accounting predicate: the batches it is handed were executed by this block (their
   status counts as executed), their rows are as inserted, every transaction is a PEG request *)
Theorem hist_ok_record_peg_requests h s batches rates avgs bankamt bh s' :
  record_peg_requests c h s batches rates avgs bankamt bh = Ok s' ->
  (forall t, 0 <= rate_of rates t) ->
  Forall (peg_batch_ready s) batches ->
  Forall (fun b => 0 < exec_of (hist s) (fst b)) batches ->
  hist_ok c s -> hist_ok c s'.
Proof.
  intros H Hr Hb Hex [Hacc Hrb].
  destruct (pays_of_keys c _ _ _ _ _ _ _ _ H) as [Hnd Hkeys].
  destruct (record_peg_requests_history c (fun l => l) h s batches rates avgs bankamt bh s' H Hr Hnd Hkeys Hb)
    as (R1 & _ & _ & _ & _ & _ & R7 & _ & R9).
  set (reqs := reqs_of c h rates avgs batches) in *. set (ps := pays_of c h rates avgs batches bankamt) in *.
  split.
  - intros a t Hsp. unfold hist_sum. rewrite R1, (R7 a t), (Hacc a t Hsp). unfold hist_sum.
    rewrite !sum_counted_sum_over, (R9 (counted c (hist s) a t)). f_equal.
    apply sum_over_ext_in. intros p Hp.
    (* the rows of a paid request carry the hash of its batch, which counts as executed *)
    assert (Hq : forall r, found reqs p = Some r -> is_peg_request (pr_tx r) = true /\ 0 < exec_of (hist s) (fst (fst p))).
    { intros r Ef. destruct (found_ready c h rates avgs batches s p r Hb Ef) as (_ & Hq & Hbin). split; [exact Hq|].
      apply in_map_iff in Hbin as (b & <- & Hbb). exact (proj1 (Forall_forall _ _) Hex b Hbb). }
    rewrite (pay_credit_delta c h rates reqs (burn_addr c (exec_of (hist s) (fst (fst p)))) a t p (fun r Hf => proj1 (Hq r Hf))).
    unfold pay_delta. destruct (found reqs p) as [r|]; [|reflexivity]. destruct (Hq r eq_refl) as [_ Hpos].
    unfold counted, paid_row. cbn [set_paid ht_hash]. rewrite (proj1 (pend_row_keys (fst (fst p)) (snd (fst p)) (pr_tx r))).
    destruct (Z.ltb_spec 0 (exec_of (hist s) (fst (fst p)))); [reflexivity|lia].
  - exact (lwrites_rows_have_batch True _ _ _ _ (record_peg_requests_writes c _ _ _ _ _ _ _ _ H) Hrb).
Qed.

(* the first pass keeps the accounting predicate as well, deferred PEG requests included: an executed batch whose
   PEG requests are deferred stands, until the second pass, for its debits alone *)
Lemma hist_ok_record_batch2 cur hs rates avgs txs s s' :
  0 < cur ->
  record_batch c cur hs rates avgs txs s = Ok s' ->
  convs_fit c cur rates avgs txs = true ->
  rows_of hs (htxs s) = map fst (history_rows_of hs txs) ->
  exec_of (hist s) hs <= 0 ->
  hist_ok c s -> hist_ok c s'.
Proof.
  intros Hcur H Hfit Hrows Hle Hok.
  destruct (record_batch_history2 c cur hs rates avgs txs s s' H Hfit Hrows) as (R1 & R2 & R3 & R4).
  destruct txs as [|t0 txs0]; [cbn in H; inversion H; subst; exact Hok|].
  refine (hist_ok_mark_step c s s' hs cur R3 R2 Hle (fun _ => rows_have_batch_some s hs (proj2 Hok) _) _ Hok).
  - rewrite Hrows, history_rows_of_pend. discriminate.
  - intros a t. destruct (Z.ltb_spec 0 cur); [apply R4|lia].
Qed.
Theorem hist_ok_apply_batch2 cur hs rates avgs txs s s' :
  0 < cur ->
  apply_batch c cur s hs txs rates avgs = BApplied s' ->
  convs_fit c cur rates avgs txs = true ->
  rows_of hs (htxs s) = map fst (history_rows_of hs txs) ->
  exec_of (hist s) hs <= 0 ->
  hist_ok c s -> hist_ok c s'.
Proof. intros Hcur H. apply apply_batch_applied_is_record in H. exact (hist_ok_record_batch2 cur hs rates avgs txs s s' Hcur H). Qed.
End BankAccounting.

(* a concrete bank-era state (ex_cfg: PEG limit from 200, V4 from 300, 2.0 from 400) *)
Definition ex_pegreq (hs : hash) (amts : list Z) : entry :=
  {| e_hash := hs; e_ts := 2000;
     e_batch := Some (map (fun a => {| tx_addr := alice; tx_type := PTickerFCT; tx_amt := a; tx_transfers := []; tx_conv := PTickerPEG |}) amts);
     e_rcde := false |}.
Definition bx_tx : tx := {| tx_addr := alice; tx_type := PTickerFCT; tx_amt := 20; tx_transfers := []; tx_conv := PTickerPEG |}.
Definition bx_txs : list tx := [bx_tx].
(* alice burns 100 FCT (101); her request 20 pFCT -> PEG arrives at 250 and waits; the rated block 251 executes the batch
   (first pass: debit only) and then pays it from a bank of 30 PEG: 40 requested, 30 paid, 10 PEG = 5 pFCT refunded *)
Definition bx_s1 : db := ok_or genesis (apply_factoid_block 101 genesis [ex_burn 501 100]).
Definition bx_s2 : db := ok_or genesis (apply_tx_block ex_cfg 250 bx_s1 [ex_pegreq 701 [20]]).
Definition bx_s3 : db := ok_or genesis (record_batch ex_cfg 251 701 ex_rates ex_rates bx_txs bx_s2).
Definition bx_s4 : db := ok_or genesis (record_peg_requests ex_cfg 251 bx_s3 [(701, bx_txs)] ex_rates ex_rates 30 250).

Example record_batch_history2_hyps :
  record_batch ex_cfg 251 701 ex_rates ex_rates bx_txs bx_s2 = Ok bx_s3 /\
  c_PegnetConversionLimitActivation ex_cfg <= 251 /\ forallb is_peg_request bx_txs = true /\
  convs_fit ex_cfg 251 ex_rates ex_rates bx_txs = true /\
  rows_of 701 (htxs bx_s2) = map fst (history_rows_of 701 bx_txs) /\
  (* the first pass: the row is untouched, alice is debited, the batch is marked executed *)
  rows_of 701 (htxs bx_s3) = pend_rows 701 0 bx_txs /\
  get_bal (bal bx_s2) alice PTickerFCT = 100 /\ get_bal (bal bx_s3) alice PTickerFCT = 80 /\
  rows_effect 0 alice PTickerFCT (rows_of 701 (htxs bx_s3)) = -20 /\
  status_of bx_s2 701 = [0] /\ status_of bx_s3 701 = [251].
Proof. split; [apply (ok_or_ok genesis); vm_compute; exact I|]. vm_compute. repeat split; try reflexivity. discriminate. Qed.

Example record_peg_requests_history_hyps :
  record_peg_requests ex_cfg 251 bx_s3 [(701, bx_txs)] ex_rates ex_rates 30 250 = Ok bx_s4 /\
  rows_of 701 (htxs bx_s3) = pend_rows 701 0 bx_txs /\ forallb is_peg_request bx_txs = true /\
  (* the second pass on this instance: yield 30 into to_amount, refund 5 as the single output, both credited *)
  rows_of 701 (htxs bx_s4) = [paid_row ex_cfg 251 ex_rates 701 0 bx_tx 30] /\
  map ht_to_amount (rows_of 701 (htxs bx_s4)) = [30] /\ map ht_outputs (rows_of 701 (htxs bx_s4)) = [[(alice, 5)]] /\
  get_bal (bal bx_s4) alice PTickerPEG = 30 /\ get_bal (bal bx_s4) alice PTickerFCT = 85 /\
  rows_effect 0 alice PTickerPEG (rows_of 701 (htxs bx_s4)) = 30 /\
  rows_effect 0 alice PTickerFCT (rows_of 701 (htxs bx_s4)) = -15.
Proof. split; [apply (ok_or_ok genesis); vm_compute; exact I|]. vm_compute. repeat split; reflexivity. Qed.
Lemma rate_of_insert_nonneg (m : gmap ticker Z) k v :
  0 <= v -> (forall t, 0 <= rate_of m t) -> forall t, 0 <= rate_of (<[k := v]> m) t.
Proof.
  intros Hv Hm t. unfold rate_of. destruct (Z.eq_dec t k) as [->|N]; [rewrite lookup_insert; exact Hv|].
  rewrite lookup_insert_ne by auto. apply Hm.
Qed.
Example record_peg_requests_ready : Forall (peg_batch_ready bx_s3) [(701, bx_txs)] /\ (forall t, 0 <= rate_of ex_rates t).
Proof.
  split; [constructor; [split; vm_compute; reflexivity|constructor]|].
  unfold ex_rates. do 3 (apply rate_of_insert_nonneg; [lia|]). intros t. unfold rate_of. rewrite lookup_empty. reflexivity.
Qed.

(* why "pure PEG batch" is not enough: a Convert failure inside the batch
   applyTransactionBatch returns nil as soon as one Convert fails (nothing is written), the caller takes nil for
   "accepted" and, in the bank era, appends the batch to pegConversions; recordPegnetRequests then pays EVERY request
   of the batch.  Witness: alice holds 9e18 pFCT; her batch asks 20 pFCT -> PEG and 9e18 pFCT -> PEG (the second one
   overflows int64).  Nothing is debited, the batch stays pending (status 0), and alice is credited 40 PEG. *)
Definition wx_s1 : db := ok_or genesis (apply_factoid_block 101 genesis [ex_burn 501 9000000000000000000]).
Definition wx_s2 : db := ok_or genesis (apply_tx_block ex_cfg 250 wx_s1 [ex_pegreq 702 [20; 9000000000000000000]]).
Definition wx_s3 : db := ok_or genesis (apply_holding ex_cfg wx_s2 251 wx_s2 ex_rates ex_rates).
Example bank_pays_a_dropped_peg_batch :
  apply_tx_block ex_cfg 250 wx_s1 [ex_pegreq 702 [20; 9000000000000000000]] = Ok wx_s2 /\
  apply_holding ex_cfg wx_s2 251 wx_s2 ex_rates ex_rates = Ok wx_s3 /\
  hist_ok ex_cfg wx_s2 /\
  status_of wx_s3 702 = [0] /\
  get_bal (bal wx_s2) alice PTickerFCT = 9000000000000000000 /\ get_bal (bal wx_s3) alice PTickerFCT = 9000000000000000000 /\
  get_bal (bal wx_s2) alice PTickerPEG = 0 /\ get_bal (bal wx_s3) alice PTickerPEG = 40 /\
  hist_sum ex_cfg wx_s3 alice PTickerPEG = 0 /\ ~ accounts ex_cfg wx_s3.
Proof.
  assert (E1 : apply_factoid_block 101 genesis [ex_burn 501 9000000000000000000] = Ok wx_s1) by (apply (ok_or_ok genesis); vm_compute; exact I).
  assert (E2 : apply_tx_block ex_cfg 250 wx_s1 [ex_pegreq 702 [20; 9000000000000000000]] = Ok wx_s2)
    by (apply (ok_or_ok genesis); vm_compute; exact I).
  assert (E3 : apply_holding ex_cfg wx_s2 251 wx_s2 ex_rates ex_rates = Ok wx_s3) by (apply (ok_or_ok genesis); vm_compute; exact I).
  assert (H1 : hist_ok ex_cfg wx_s1) by (refine (hist_ok_first_factoid_block ex_cfg 101 _ wx_s1 _ E1); lia).
  assert (H2 : hist_ok ex_cfg wx_s2) by (refine (hist_ok_apply_tx_block ex_cfg 250 wx_s1 _ wx_s2 _ E2 H1); lia).
  split; [exact E2|]. split; [exact E3|]. split; [exact H2|].
  do 6 (split; [vm_compute; reflexivity|]).
  (* the cell (alice, PEG) is one where balance and history disagree *)
  intros A. specialize (A alice PTickerPEG eq_refl). vm_compute in A. discriminate.
Qed.

(* the two passes at the level of the accounting predicate, on the same concrete state *)
Example bank_era_hist_ok_example :
  hist_ok ex_cfg bx_s2 /\ hist_ok ex_cfg bx_s3 /\ hist_ok ex_cfg bx_s4 /\
  get_bal (bal bx_s3) alice PTickerFCT = 80 /\ hist_sum ex_cfg bx_s3 alice PTickerFCT = 80 /\
  get_bal (bal bx_s4) alice PTickerFCT = 85 /\ hist_sum ex_cfg bx_s4 alice PTickerFCT = 85 /\
  get_bal (bal bx_s4) alice PTickerPEG = 30 /\ hist_sum ex_cfg bx_s4 alice PTickerPEG = 30.
Proof.
  assert (E1 : apply_factoid_block 101 genesis [ex_burn 501 100] = Ok bx_s1) by (apply (ok_or_ok genesis); vm_compute; exact I).
  assert (E2 : apply_tx_block ex_cfg 250 bx_s1 [ex_pegreq 701 [20]] = Ok bx_s2) by (apply (ok_or_ok genesis); vm_compute; exact I).
  destruct record_batch_history2_hyps as (E3 & _ & _ & Hfit & Hrows & _).
  destruct record_peg_requests_history_hyps as (E4 & _).
  assert (H1 : hist_ok ex_cfg bx_s1) by (refine (hist_ok_first_factoid_block ex_cfg 101 _ bx_s1 _ E1); lia).
  assert (H2 : hist_ok ex_cfg bx_s2) by (refine (hist_ok_apply_tx_block ex_cfg 250 bx_s1 _ bx_s2 _ E2 H1); lia).
  assert (H3 : hist_ok ex_cfg bx_s3).
  { refine (hist_ok_record_batch2 ex_cfg 251 701 ex_rates ex_rates bx_txs bx_s2 bx_s3 _ E3 Hfit Hrows _ H2); [lia|vm_compute; discriminate]. }
  assert (H4 : hist_ok ex_cfg bx_s4).
  { destruct record_peg_requests_ready as [Rd Rn].
    refine (hist_ok_record_peg_requests ex_cfg 251 bx_s3 _ ex_rates ex_rates 30 250 bx_s4 E4 Rn Rd _ H3).
    constructor; [vm_compute; reflexivity|constructor]. }
  split; [exact H2|]. split; [exact H3|]. split; [exact H4|]. vm_compute. repeat split.
Qed.

Print Assumptions record_txs_history2.
Print Assumptions record_batch_history2.
Print Assumptions record_peg_requests_history.
Print Assumptions record_peg_requests_history_id.
Print Assumptions hist_ok_record_peg_requests.
Print Assumptions hist_ok_apply_batch2.
