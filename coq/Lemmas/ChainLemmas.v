(* Lemmas/ChainLemmas.v — facts about whole blocks and chains, read off the writes of a block
   (BlockLemmas.step_block_writes): recorded rates never change and appear only at the block's
   own height, likewise the grading rows; relation rows are never deleted (replay protection is
   monotone); the sync-version table gains exactly the block's height; replay over a chain. *)
From Model Require Import Obs.
From Lemmas Require Import DbLemmas LedgerLemmas BlockLemmas.
From Gen Require Import Consts.
From Coq Require Import Lia RelationClasses.
Open Scope Z_scope.

Section WithCfg.
Variable c : cfg.

(* C12: rates once recorded for a height never change; a block adds rates for no other height
   than its own *)
Definition rates_ext (m m' : gmap Z (gmap ticker Z)) : Prop := forall k v, m !! k = Some v -> m' !! k = Some v.
Global Instance rates_ext_po : PreOrder rates_ext.
Proof. split; [intros m k v H; exact H|intros a b d H1 H2 k v H; apply H2, H1, H]. Qed.

(* the ledger writes leave pn_rate alone; the only rate row a block writes is its own *)
Lemma bstep_rates K h s s' :
  bstep K h s s' -> rates s' = rates s \/ exists m, rates s !! h = None /\ rates s' = <[h := m]> (rates s).
Proof.
  intros [? ? Hl|? ? ? Hg|? ? ? ? ? Hr].
  - left. symmetry. exact (lwrites_rates _ _ _ _ _ (lwrites_step _ _ _ _ _ Hl)).
  - left. symmetry. exact (insert_grade_rates _ _ _ _ Hg).
  - right. apply insert_rates_shape in Hr as (Hn & m & -> & _). eauto.
Qed.

Lemma bwrites_rates_ext K h s s' : bwrites K h s s' -> rates_ext (rates s) (rates s').
Proof.
  apply (bwrites_pres rates rates_ext). clear s s'. intros s s' H.
  destruct (bstep_rates _ _ _ _ H) as [->|(m & Hn & ->)]; [reflexivity|].
  intros k v Hk. destruct (Z.eq_dec k h) as [->|Hne]; [congruence|]. rewrite lookup_insert_ne by auto. exact Hk.
Qed.

Lemma bwrites_rates_frame K h k s s' : k <> h -> bwrites K h s s' -> rates s !! k = rates s' !! k.
Proof.
  intros Hk. apply (bwrites_pres (fun s => rates s !! k) eq). clear s s'. intros s s' H.
  destruct (bstep_rates _ _ _ _ H) as [->|(m & _ & ->)]; [reflexivity|]. symmetry. apply lookup_insert_ne. auto.
Qed.

Theorem step_block_rates_immutable cm mem b s' mem' :
  step_block c cm mem b = Done (s', mem') -> rates_ext (rates cm) (rates s').
Proof.
  intros H. apply step_block_writes in H as (s1 & H1 & H2). rewrite (rates_insert_synced _ _ _ H2).
  exact (bwrites_rates_ext _ _ _ _ H1).
Qed.

Theorem step_block_rates_only_own_height cm mem b s' mem' k :
  k <> b_height b -> step_block c cm mem b = Done (s', mem') -> rates s' !! k = rates cm !! k.
Proof.
  intros Hk H. apply step_block_writes in H as (s1 & H1 & H2). rewrite (rates_insert_synced _ _ _ H2).
  symmetry. exact (bwrites_rates_frame _ _ _ _ _ Hk H1).
Qed.

Lemma bwrites_grades_own K h s s' : bwrites K h s s' ->
  (forall k, k <> h -> grades s' !! k = grades s !! k) /\
  (forall r, In r (winners s') -> In r (winners s) \/ fst (fst (fst (fst r))) = h).
Proof.
  intros H. induction H as [s0 s1 [? ? Hl|? ? ? Hg|? ? ? ? ? Hr]| |x y z _ [E1 F1] _ [E2 F2]].
  - pose proof (lwrites_block_tables _ _ _ _ _ (lwrites_step _ _ _ _ _ Hl)) as Bt. inversion Bt as [[Eg Ew Er Ev]].
    rewrite Eg, Ew. split; auto.
  - apply insert_grade_ok in Hg as (_ & w & -> & Hw). cbn [grades winners set_grades]. split.
    + intros k Hk. apply lookup_insert_ne. auto.
    + intros r Hr. apply in_app_or in Hr as [Hr|Hr]; [left; exact Hr|right]. rewrite Forall_forall in Hw. exact (Hw r Hr).
  - apply insert_rates_shape in Hr as (_ & m & -> & _). split; auto.
  - split; auto.
  - split; [intros k Hk; rewrite E2, E1 by exact Hk; reflexivity|].
    intros r Hr. apply F2 in Hr as [Hr|Hr]; [apply F1, Hr|right; exact Hr].
Qed.

Theorem step_block_grades_only_own_height cm mem b s' mem' :
  step_block c cm mem b = Done (s', mem') ->
  (forall k, k <> b_height b -> grades s' !! k = grades cm !! k) /\
  (forall r, In r (winners s') -> In r (winners cm) \/ fst (fst (fst (fst r))) = b_height b).
Proof.
  intros H. apply step_block_writes in H as (s1 & H1 & H2). apply insert_synced_shape in H2 as (_ & ->).
  exact (bwrites_grades_own _ _ _ _ H1).
Qed.

(* C06: a relation row is never deleted: once an entry hash counts as executed it does so for ever *)
Definition replayed (m : gmap hash (list (addr * Z * bool * bool))) (hs : hash) : Prop :=
  match m !! hs with Some (_ :: _) => True | _ => False end.
Lemma is_replay_replayed s hs : is_replay s hs = true <-> replayed (rel s) hs.
Proof. unfold is_replay, replayed. destruct (rel s !! hs) as [[|? ?]|]; split; intros H; try discriminate; try contradiction; auto. Qed.
Definition rel_ext (m m' : gmap hash (list (addr * Z * bool * bool))) : Prop := forall hs, replayed m hs -> replayed m' hs.
Global Instance rel_ext_po : PreOrder rel_ext.
Proof. split; [intros m hs H; exact H|intros a b d H1 H2 hs H; apply H2, H1, H]. Qed.

(* the only write to the relation table appends a row under one hash *)
Lemma lstep_rel_ext K rw ex s s' : lstep K rw ex s s' -> rel_ext (rel s) (rel s').
Proof.
  intros H. destruct H as [| | | | |rw s a hs i t cv| | | | | |]; try (untouched; fail).
  destruct (insert_relation_shape s a hs i t cv) as [-> | ->]; [reflexivity|]. cbn.
  intros hs' Hr. unfold replayed in *. destruct (Z.eq_dec hs' hs) as [->|Hne].
  - rewrite lookup_insert. destruct (default [] _); exact I.
  - rewrite lookup_insert_ne by auto. exact Hr.
Qed.

Theorem step_block_replay_monotone cm mem b s' mem' :
  step_block c cm mem b = Done (s', mem') -> rel_ext (rel cm) (rel s').
Proof.
  intros H. apply step_block_writes in H as (s1 & H1 & H2).
  apply insert_synced_shape in H2 as (_ & ->). cbn [rel set_synced]. revert H1.
  apply (bwrites_pres rel rel_ext). intros s s0 [? ? Hl|? ? ? Hg|? ? ? ? ? Hr]; [exact (lstep_rel_ext _ _ _ _ _ Hl)|untouched..].
Qed.

Theorem step_block_synced cm mem b s' mem' :
  step_block c cm mem b = Done (s', mem') ->
  synced s' = Some (b_height b) /\ versions cm !! (b_height b) = None /\
  versions s' = <[b_height b := PegnetdSyncVersion]> (versions cm).
Proof.
  intros H. apply step_block_writes in H as (s1 & H1 & H2). apply insert_synced_shape in H2 as (Hn & ->). cbn.
  rewrite (bwrites_versions _ _ _ _ H1) in *. auto.
Qed.

Lemma replay_cons cm mem b bs r :
  replay c cm mem (b :: bs) = Done r ->
  exists s1 m1, step_block c cm mem b = Done (s1, m1) /\ replay c s1 m1 bs = Done r.
Proof. cbn [replay]. destruct (step_block c cm mem b) as [[s1 m1]| | |]; try discriminate. eauto. Qed.

Lemma replay_app : forall bs1 bs2 cm mem,
  replay c cm mem (bs1 ++ bs2) =
  match replay c cm mem bs1 with Done (s, m) => replay c s m bs2 | Stuck e => Stuck e | Crashed e => Crashed e | OracleMiss w => OracleMiss w end.
Proof.
  induction bs1 as [|b bs1 IH]; intros bs2 cm mem; cbn [app replay]; [reflexivity|].
  destruct (step_block c cm mem b) as [[s1 m1]| | |]; [apply IH|reflexivity..].
Qed.

Lemma replay_pres {A} (π : db -> A) (R : A -> A -> Prop) `{!PreOrder R} bs :
  (forall cm mem b s' mem', In b bs -> step_block c cm mem b = Done (s', mem') -> R (π cm) (π s')) ->
  forall cm mem s m, replay c cm mem bs = Done (s, m) -> R (π cm) (π s).
Proof.
  induction bs as [|b bs IH]; intros Hstep cm mem s m H.
  - inversion H; subst. reflexivity.
  - apply replay_cons in H as (s1 & m1 & H1 & H2).
    etransitivity; [exact (Hstep _ _ _ _ _ (or_introl eq_refl) H1)|].
    exact (IH (fun cm mem b s' mem' Hb => Hstep cm mem b s' mem' (or_intror Hb)) _ _ _ _ H2).
Qed.

Lemma replay_invariant (P : db -> Prop) :
  (forall cm mem b s' mem', P cm -> step_block c cm mem b = Done (s', mem') -> P s') ->
  forall bs cm mem s m, P cm -> replay c cm mem bs = Done (s, m) -> P s.
Proof.
  intros Hstep bs cm mem s m HP H. revert HP. revert cm mem s m H.
  apply (replay_pres (fun s => s) (fun x y => P x -> P y)). intros cm mem b s' mem' _ H HP. exact (Hstep _ _ _ _ _ HP H).
Qed.

Lemma replay_rates_frame k bs : forall cm mem s m,
  replay c cm mem bs = Done (s, m) -> (forall b, In b bs -> b_height b <> k) -> rates s !! k = rates cm !! k.
Proof.
  intros cm mem s m H Hk. symmetry. revert cm mem s m H. apply (replay_pres (fun s => rates s !! k) eq).
  intros cm mem b s' mem' Hb H1. symmetry. apply (step_block_rates_only_own_height cm mem b s' mem' k); [|exact H1].
  intros ->. exact (Hk b Hb eq_refl).
Qed.

Lemma nonneg_genesis : nonneg genesis.
Proof. unfold nonneg, genesis, empty_db; cbn. apply nonneg_empty. Qed.

(* C03: in every state reachable by replay no balance is negative *)
Theorem replay_nonneg bs s m : replay c genesis empty_cache bs = Done (s, m) -> nonneg s.
Proof. apply (replay_invariant nonneg); [intros; eapply step_block_nonneg; eauto|apply nonneg_genesis]. Qed.
End WithCfg.
