(* Lemmas/SyncLemmas.v — C02 / C09 / C10 / C18 at the level of the sync loop: whatever faults,
   crashes, restarts and API requests happen, the committed database is always the replay of a
   prefix of the chain — nothing of a later block, nothing missing from an earlier one. *)
From Model Require Import Sync.
From Lemmas Require Import ChainLemmas RestartLemmas.
From Coq Require Import Lia.
Open Scope Z_scope.

Lemma heights_from_weaken : forall bs h1 h2, h1 <= h2 -> heights_from h2 bs -> heights_from h1 bs.
Proof. destruct bs as [|b bs]; intros h1 h2 Hle H; cbn in *; [exact I|]. destruct H; split; [lia|assumption]. Qed.

Section Loop.
Variable c : cfg.

Lemma cache_ok_mono cm mem h1 h2 : h1 <= h2 -> cache_ok c cm mem h1 -> cache_ok c cm mem h2.
Proof. intros Hle [Ha Hh]. split; [exact Ha|lia]. Qed.

Lemma cache_from_ok cm mem' hn : 0 < hn -> cache_from c cm mem' hn -> cache_ok c cm mem' hn.
Proof.
  intros Hpos [->|(hq & Hq & ->)]; [apply empty_cache_ok; exact Hpos|].
  split; cbn [ac_avgs ac_height]; [reflexivity|exact Hq].
Qed.

(* The loop invariant.  The committed database is the uninterrupted replay of the blocks done.  The
   cache in memory is whatever faults, restarts and API requests left there, not the cache [m0] that
   replay would hold: but both are sound for the heights still to come, and a block does the same
   to the database from any sound cache (RestartLemmas.step_block_mem_irrelevant). *)
Definition loop_invariant (chain : list block) (x : node * list block) : Prop :=
  exists done_ m0 hn, chain = done_ ++ snd x /\ replay c genesis empty_cache done_ = Done (n_db (fst x), m0) /\
    0 < hn /\ heights_from hn (snd x) /\ cache_ok c (n_db (fst x)) m0 hn /\ cache_ok c (n_db (fst x)) (n_mem (fst x)) hn.

Lemma loop_invariant_step chain x y : loop_invariant chain x -> trans c x y -> loop_invariant chain y.
Proof.
  intros (dn & m0 & hn & Hc & HR & H0 & Hh & C0 & Cm) T.
  destruct T as [n b rest s' mem' Hs|n b rest mem' Hm|n todo|n b rest mem' Hm]; cbn [fst snd n_db n_mem] in *.
  - (* commit: the replay commits the same database *)
    destruct Hh as [Hle Hrest].
    pose proof (step_block_mem_irrelevant c (n_db n) m0 (n_mem n) hn b C0 Cm) as E. rewrite Hs in E.
    destruct (step_block c (n_db n) m0 b) as [[s2 m2]| | |] eqn:E0; cbn [odb fst] in E; try discriminate. inversion E; subst s2.
    exists (dn ++ [b]), m2, (b_height b + 1). rewrite <- app_assoc, replay_app, HR. cbn [replay]. rewrite E0.
    split; [exact Hc|]. split; [reflexivity|]. split; [lia|]. split; [exact Hrest|].
    assert (0 < b_height b) by lia.
    split; [exact (step_block_cache_ok c _ _ hn b _ _ C0 Hle H E0)|exact (step_block_cache_ok c _ _ hn b _ _ Cm Hle H Hs)].
  - (* rollback: the cache is kept, or was refilled below the block's height *)
    destruct Hh as [Hle Hrest]. exists dn, m0, (b_height b).
    split; [exact Hc|]. split; [exact HR|]. split; [lia|]. split; [split; [lia|exact Hrest]|].
    split; [eapply cache_ok_mono; eassumption|].
    destruct Hm as [->|Hm]; [eapply cache_ok_mono; eassumption|apply cache_from_ok; [lia|exact Hm]].
  - (* crash and restart *)
    exists dn, m0, hn. repeat (split; [assumption|]). apply empty_cache_ok; exact H0.
  - (* API request *)
    destruct Hh as [Hle Hrest]. exists dn, m0, (b_height b).
    split; [exact Hc|]. split; [exact HR|]. split; [lia|]. split; [split; [lia|exact Hrest]|].
    split; [eapply cache_ok_mono; eassumption|apply cache_from_ok; [lia|exact Hm]].
Qed.

(* C02 + C09 + C10 + C18: whatever happens between commits, the committed database is the
   uninterrupted replay of the applied prefix of the chain; the rest of the chain is still to do *)
Theorem loop_consistent chain h0 n todo :
  0 < h0 -> heights_from h0 chain ->
  reach c ({| n_db := genesis; n_mem := empty_cache |}, chain) (n, todo) ->
  exists done_ m, chain = done_ ++ todo /\ replay c genesis empty_cache done_ = Done (n_db n, m).
Proof.
  intros H0 Hh R.
  enough (I : loop_invariant chain (n, todo)) by (destruct I as (dn & m & _ & Hc & HR & _); eauto).
  remember ({| n_db := genesis; n_mem := empty_cache |}, chain) as x0 eqn:E0.
  induction R as [x|x y z R IH T].
  - subst x. exists [], empty_cache, h0. cbn [fst snd n_db n_mem]. auto 10 using empty_cache_ok.
  - eapply loop_invariant_step; [apply IH; exact E0|exact T].
Qed.
End Loop.
