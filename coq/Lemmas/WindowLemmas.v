(* Lemmas/WindowLemmas.v — C06 / C07, end to end: the holding window of a rated block.
   last_rated_below is the largest rated height in (0, h), or 0 (the Go default) when there is none, so that
   window s cur = [last_rated_below s cur, cur); the windows of two rated heights are disjoint, those of
   consecutive rated heights tile; the window is a function of the rated heights below the block.  Chain level:
   in a replayed chain, the blocks whose holding pass looks at a height g are: the block at the least rated
   height above g, and no other. *)
From Model Require Import Block Obs Examples.
From Lemmas Require Import DbLemmas BlockLemmas ChainLemmas RestartLemmas SyncLemmas HoldingLemmas ExecExact TotalityChain.
From Gen Require Import Consts.
From Coq Require Import Lia ZifyBool Sorting.Sorted.
Open Scope Z_scope.
Open Scope list_scope.

(* [rated s k]: pn_rate has rows for height k *)
Definition rated (s : db) (k : Z) : Prop := exists m, rates s !! k = Some m.

Lemma rated_dec s k : {rated s k} + {rates s !! k = None}.
Proof. unfold rated. destruct (rates s !! k) as [m|]; [left; eauto|right; reflexivity]. Qed.

(* DbLemmas.last_rated_below_char as a predicate on the result *)
Definition lrb_spec (s : db) (h L : Z) : Prop :=
  (rated s L /\ 0 < L < h /\ forall k, rated s k -> k < h -> k <= L)
  \/ (L = 0 /\ forall k, rated s k -> k < h -> k <= 0).

Theorem last_rated_below_spec s h : lrb_spec s h (last_rated_below s h).
Proof.
  destruct (last_rated_below_char s h) as (M & [E|(B & R)]).
  - right. split; [exact E|]. intros k (m & Hm) Hk. rewrite <- E. exact (M k m Hm Hk).
  - left. split; [exact R|]. split; [exact B|]. intros k (m & Hm) Hk. exact (M k m Hm Hk).
Qed.

Lemma last_rated_below_gap s h k : last_rated_below s h < k < h -> rates s !! k = None.
Proof.
  intros Hk. destruct (rates s !! k) as [m|] eqn:E; [|reflexivity].
  pose proof (last_rated_below_ge s h k m E ltac:(lia)). lia.
Qed.

Theorem window_shape s cur :
  window s cur = zrange (last_rated_below s cur) (Z.to_nat (cur - last_rated_below s cur)) /\
  List.NoDup (window s cur) /\ StronglySorted Z.lt (window s cur) /\
  (forall g, In g (window s cur) <-> last_rated_below s cur <= g < cur) /\
  length (window s cur) = Z.to_nat (cur - last_rated_below s cur) /\
  (forall i d, (i < length (window s cur))%nat -> nth i (window s cur) d = last_rated_below s cur + Z.of_nat i).
Proof.
  unfold window. split; [reflexivity|]. split; [apply zrange_NoDup|]. split; [apply zrange_sorted|].
  split; [intros g; rewrite in_zrange_iff; lia|]. split; [apply zrange_length|].
  intros i d Hi. rewrite zrange_length in Hi. apply zrange_nth. exact Hi.
Qed.

Lemma window_nonpos s cur : cur <= 0 -> window s cur = [].
Proof.
  intros Hc. unfold window. pose proof (last_rated_below_bounds s cur).
  replace (Z.to_nat (cur - last_rated_below s cur)) with O by lia. reflexivity.
Qed.

Lemma window_nonneg s cur g : In g (window s cur) -> 0 <= g.
Proof. intros H. apply window_spec in H. pose proof (last_rated_below_bounds s cur). lia. Qed.

(* two rated heights (in fact only the smaller one has to be rated): their windows share no height *)
Theorem windows_disjoint s r1 r2 g :
  rated s r1 -> 0 <= r1 -> r1 < r2 -> In g (window s r1) -> In g (window s r2) -> False.
Proof.
  intros (m & Hm) H0 Hlt G1. apply window_spec in G1. apply (held_height_not_revisited s r1 r2 g m Hm); lia.
Qed.

Lemma window_start s h L :
  0 <= L -> (rated s L /\ L < h) \/ L = 0 -> (forall k, L < k < h -> rates s !! k = None) -> last_rated_below s h = L.
Proof.
  intros H0 HL Hgap.
  assert (Hge : L <= last_rated_below s h).
  { destruct HL as [((m & Hm) & Hlt)| ->]; [exact (last_rated_below_ge s h L m Hm Hlt)|apply last_rated_below_bounds]. }
  destruct (proj2 (last_rated_below_char s h)) as [E0|(B & m & Hm)]; [lia|].
  destruct (Z.eq_dec (last_rated_below s h) L) as [E|N]; [exact E|].
  rewrite Hgap in Hm by lia. discriminate.
Qed.

Lemma window_of_start s h L :
  last_rated_below s h = L -> window s h = zrange L (Z.to_nat (h - L)) /\ forall g, In g (window s h) <-> L <= g < h.
Proof. intros <-. split; [reflexivity|apply window_spec]. Qed.

Theorem windows_tile s r1 r2 :
  rated s r1 -> 0 <= r1 -> r1 < r2 -> (forall k, r1 < k < r2 -> rates s !! k = None) ->
  last_rated_below s r2 = r1 /\ window s r2 = zrange r1 (Z.to_nat (r2 - r1)) /\
  forall g, In g (window s r2) <-> r1 <= g < r2.
Proof.
  intros R1 H0 Hlt Hgap. assert (E : last_rated_below s r2 = r1) by (apply window_start; auto).
  exact (conj E (window_of_start s r2 r1 E)).
Qed.

Theorem window_first_rated s r :
  (forall k, 0 < k < r -> rates s !! k = None) ->
  last_rated_below s r = 0 /\ window s r = zrange 0 (Z.to_nat r) /\ forall g, In g (window s r) <-> 0 <= g < r.
Proof.
  intros Hnone. assert (E : last_rated_below s r = 0) by (apply window_start; auto; lia).
  pose proof (window_of_start s r 0 E) as H. rewrite Z.sub_0_r in H. exact (conj E H).
Qed.

Theorem last_rated_below_agree s s' cur :
  (forall k, k < cur -> rates s !! k = rates s' !! k) -> last_rated_below s cur = last_rated_below s' cur.
Proof. intros Hag. apply last_rated_below_agree_rated. intros k Hk. rewrite (Hag k Hk). reflexivity. Qed.

Theorem window_agree s s' cur :
  (forall k, k < cur -> rates s !! k = rates s' !! k) -> window s cur = window s' cur.
Proof. intros Hag. unfold window. rewrite (last_rated_below_agree s s' cur Hag). reflexivity. Qed.

(* only WHICH heights are rated matters, not the rate maps *)
Theorem window_agree_rated s s' cur :
  (forall k, k < cur -> rated s k <-> rated s' k) -> window s cur = window s' cur.
Proof. intros T. unfold window. rewrite (last_rated_below_agree_rated s s' cur T). reflexivity. Qed.

Definition first_rated_above (s : db) (g r : Z) : Prop :=
  rated s r /\ g < r /\ forall k, rated s k -> g < k -> r <= k.

Lemma first_rated_above_unique s g r r' : first_rated_above s g r -> first_rated_above s g r' -> r = r'.
Proof. intros (R1 & L1 & M1) (R2 & L2 & M2). pose proof (M1 _ R2 L2). pose proof (M2 _ R1 L1). lia. Qed.

Theorem window_iff_no_rated_between s r g :
  In g (window s r) <-> 0 <= g < r /\ forall k, g < k < r -> rates s !! k = None.
Proof.
  rewrite window_spec. split.
  - intros Hg. pose proof (last_rated_below_bounds s r). split; [lia|].
    intros k Hk. apply (last_rated_below_gap s r). lia.
  - intros (Hg & Hnone). split; [|lia].
    destruct (proj2 (last_rated_below_char s r)) as [E0|(B & m & Hm)]; [lia|].
    destruct (Z_le_gt_dec (last_rated_below s r) g) as [Hle|Hgt]; [exact Hle|].
    rewrite Hnone in Hm by lia. discriminate.
Qed.

Theorem window_iff_first_rated_above s r g :
  rated s r -> (In g (window s r) <-> 0 <= g /\ first_rated_above s g r).
Proof.
  intros Rr. rewrite window_iff_no_rated_between. unfold first_rated_above. split.
  - intros (Hg & Hnone). split; [lia|]. split; [exact Rr|]. split; [lia|].
    intros k (m & Hm) Hk. destruct (Z_le_gt_dec r k) as [Hle|Hgt]; [exact Hle|].
    rewrite Hnone in Hm by lia. discriminate.
  - intros (Hg & _ & Hlt & M). split; [lia|].
    intros k Hk. destruct (rated_dec s k) as [Rk|N]; [|exact N]. specialize (M k Rk ltac:(lia)). lia.
Qed.

(* exactly once, on a state: a height g >= 0 is in the window of AT MOST ONE rated height ... *)
Corollary held_height_in_one_window s g r r' :
  rated s r -> rated s r' -> In g (window s r) -> In g (window s r') -> r = r'.
Proof.
  intros R R' G G'. apply (window_iff_first_rated_above s r g R) in G as (_ & F).
  apply (window_iff_first_rated_above s r' g R') in G' as (_ & F'). exact (first_rated_above_unique s g r r' F F').
Qed.

Lemma first_rated_above_exists s g : forall r0, 0 <= g -> rated s r0 -> g < r0 -> exists r, first_rated_above s g r /\ r <= r0.
Proof.
  intros r0 Hg. remember (Z.to_nat (r0 - g)) as n eqn:En. revert r0 En.
  induction n as [n IH] using lt_wf_ind. intros r0 En R0 Hlt.
  destruct (Z_le_gt_dec (last_rated_below s r0) g) as [Hle|Hgt].
  - exists r0. split; [|lia]. apply (window_iff_first_rated_above s r0 g R0). apply window_spec. lia.
  - destruct (proj2 (last_rated_below_char s r0)) as [E0|(B & RL)]; [lia|].
    destruct (IH (Z.to_nat (last_rated_below s r0 - g)) ltac:(lia) (last_rated_below s r0) eq_refl RL ltac:(lia))
      as (r & F & Hr).
    exists r. split; [exact F|lia].
Qed.

(* ... and of EXACTLY one as soon as some height above g is rated *)
Theorem held_height_in_exactly_one_window s g r0 :
  0 <= g -> rated s r0 -> g < r0 ->
  exists r, rated s r /\ In g (window s r) /\ forall r', rated s r' -> In g (window s r') -> r' = r.
Proof.
  intros Hg R0 Hlt. destruct (first_rated_above_exists s g r0 Hg R0 Hlt) as (r & F & _).
  pose proof F as (Rr & _). exists r. split; [exact Rr|].
  split; [apply (window_iff_first_rated_above s r g Rr); auto|].
  intros r' R' G'. apply (window_iff_first_rated_above s r' g R') in G' as (_ & F').
  exact (first_rated_above_unique s g r' r F' F).
Qed.

Print Assumptions last_rated_below_spec.
Print Assumptions window_shape.
Print Assumptions windows_disjoint.
Print Assumptions windows_tile.
Print Assumptions window_agree.
Print Assumptions window_iff_first_rated_above.
Print Assumptions held_height_in_exactly_one_window.

Section Chain.
Variable c : cfg.

(* the holding pass with the list of heights made explicit: [apply_holding] is this on [window s cur] *)
Definition holding_pass_over (cm : db) (cur : Z) (s : db) (rts avgs : gmap ticker Z) (w : list Z) : res db :=
  let? st := fold_left (fun acc hh => apply_held_height c cm cur rts avgs hh acc) w (Ok (s, [])) in
  let '(s1, pegs) := st in
  if (c_V4OPRUpdate c <=? cur) && (cur <? c_V20HeightActivation c) then
    match bank s1 !! cur with
    | None => record_peg_requests c cur s1 pegs rts avgs (wrap64 (-1)) cur
    | Some (amount, _, _) => record_peg_requests c cur s1 pegs rts avgs amount cur
    end
  else Ok s1.

Lemma apply_holding_pass_over cm cur s rts avgs :
  apply_holding c cm cur s rts avgs = holding_pass_over cm cur s rts avgs (window s cur).
Proof. apply apply_holding_uses_window. Qed.

(* the dichotomy of Lemmas/ExecExact.v one level up, for the body of the sync loop, with the window read in the
   COMMITTED state the block started from *)
Theorem step_block_rated_dichotomy cm mem b s' mem' :
  step_block c cm mem b = Done (s', mem') ->
  c_TransactionConversionActivation c <= b_height b ->
  (~ block_rated c cm b /\ rates s' = rates cm)
  \/
  (block_rated c cm b /\ rates cm !! b_height b = None /\
   exists m s1 s2,
     is_empty_map m = false /\
     rates s1 = <[b_height b := m]> (rates cm) /\
     apply_holding c cm (b_height b) s1 m
        (fst (get_averages cm (c_AveragePeriod c) mem (last_rated_below cm (b_height b)))) = Ok s2 /\
     window s1 (b_height b) = window cm (b_height b) /\
     rates s' = <[b_height b := m]> (rates cm)).
Proof.
  intros H Htca. apply step_block_inv in H as (sa & Hr & Hb).
  apply insert_synced_shape in Hb as (_ & ->). cbn [rates set_synced].
  pose proof (lwrites_rates _ _ _ _ _ (pre_burn_writes c cm b)) as E0.
  destruct (sync_block_rated_dichotomy c _ _ _ _ _ _ Hr Htca)
    as [(NB & E)|(BR & Hn & m & s1 & s2 & Hm & E1 & Hap & Hmem & Hl & E2 & E3)].
  - left. split; [exact NB|]. rewrite E. symmetry. exact E0.
  - rewrite <- E0 in Hn, E1. right. split; [exact BR|]. split; [exact Hn|].
    assert (EL : last_rated_below s1 (b_height b) = last_rated_below cm (b_height b)).
    { rewrite Hl. apply last_rated_below_agree. intros k _. rewrite E0. reflexivity. }
    exists m, s1, s2. split; [exact Hm|]. split; [exact E1|].
    split; [rewrite <- EL; exact Hap|]. split; [unfold window; rewrite EL; reflexivity|].
    rewrite E3. exact E1.
Qed.

Lemma replay_rates_ext bs : forall cm mem s m, replay c cm mem bs = Done (s, m) -> rates_ext (rates cm) (rates s).
Proof. apply (replay_pres c rates rates_ext). intros cm mem b s' mem' _. apply step_block_rates_immutable. Qed.

(* [increasing_from] (TotalityChain.v) and [heights_from] (RestartLemmas.v) are the same Fixpoint: the lemmas
   about either apply to both *)
Lemma increasing_from_weaken bs h h' : h' <= h -> increasing_from h bs -> increasing_from h' bs.
Proof. exact (heights_from_weaken bs h' h). Qed.

Lemma replay_new_rate_is_block bs cm mem s m k :
  replay c cm mem bs = Done (s, m) -> rates cm !! k = None -> rated s k -> exists b, In b bs /\ b_height b = k.
Proof.
  intros H Hn (v & Hv).
  destruct (existsb (fun b => b_height b =? k) bs) eqn:E.
  - apply existsb_exists in E as (b & Hb & Eb). exists b. split; [exact Hb|lia].
  - exfalso. rewrite (replay_rates_frame c k bs _ _ _ _ H) in Hv; [congruence|].
    intros b Hb Eb. assert (X : existsb (fun b => b_height b =? k) bs = true); [|congruence].
    apply existsb_exists. exists b. split; [exact Hb|lia].
Qed.

(* one block of a chain: the state it starts from and the final state of the chain have the same rated heights
   below the block, hence the same window; what the block records at its own height is what the final state has *)
Theorem chain_block_window h0 s0 m0 pre b post sf mf :
  increasing_from h0 (pre ++ b :: post) ->
  replay c s0 m0 (pre ++ b :: post) = Done (sf, mf) ->
  exists cm mem s' mem',
    replay c s0 m0 pre = Done (cm, mem) /\ step_block c cm mem b = Done (s', mem') /\
    replay c s' mem' post = Done (sf, mf) /\
    (forall k, k < b_height b -> rates cm !! k = rates sf !! k) /\
    (forall k, k <= b_height b -> rates s' !! k = rates sf !! k) /\
    (forall k, b_height b <= k -> rates cm !! k = rates s0 !! k) /\
    window cm (b_height b) = window sf (b_height b).
Proof.
  intros Hinc H. destruct (heights_from_split pre h0 b post Hinc) as (I1 & I2 & I3 & I4).
  rewrite replay_app in H. destruct (replay c s0 m0 pre) as [[cm mem]| | |] eqn:Hpre; try discriminate H.
  apply replay_cons in H as (s' & mem' & Hstep & Hpost).
  exists cm, mem, s', mem'. split; [reflexivity|]. split; [exact Hstep|]. split; [exact Hpost|].
  assert (A2 : forall k, k <= b_height b -> rates s' !! k = rates sf !! k).
  { intros k Hk. symmetry. apply (replay_rates_frame c k post _ _ _ _ Hpost).
    intros x Hx. pose proof (heights_from_ge _ _ _ I4 Hx). lia. }
  assert (A1 : forall k, k < b_height b -> rates cm !! k = rates sf !! k).
  { intros k Hk. rewrite <- (A2 k) by lia. symmetry.
    apply (step_block_rates_only_own_height c cm mem b s' mem' k); [lia|exact Hstep]. }
  split; [exact A1|]. split; [exact A2|].
  split; [intros k Hk; apply (replay_rates_frame c k pre _ _ _ _ Hpre); intros x Hx; specialize (I2 x Hx); lia|].
  apply window_agree. exact A1.
Qed.

(* Chain level.  A chain of increasing heights (from h0) replayed from a state with no rates at or above
   h0 (e.g. genesis) to the final state sf; b one of its blocks, at or above the activation of conversions.
     - b's height is unrated in sf: b is not a rated block and leaves pn_rate alone — it ran no holding pass
       (sync_block_rated_dichotomy: the pass is run by rated blocks only);
     - b's height is rated in sf with map m: b is a rated block, its height was unrated before, and it ran the holding
       pass once, with rates m, over the heights [window sf (b_height b)] — the window evaluated in the FINAL state —
       and a height g is in that window exactly when g >= 0 and b's height is the least rated height of sf above g. *)
Theorem chain_holding_pass h0 s0 m0 pre b post sf mf :
  increasing_from h0 (pre ++ b :: post) ->
  (forall k, h0 <= k -> rates s0 !! k = None) ->
  replay c s0 m0 (pre ++ b :: post) = Done (sf, mf) ->
  c_TransactionConversionActivation c <= b_height b ->
  exists cm mem s' mem',
    replay c s0 m0 pre = Done (cm, mem) /\ step_block c cm mem b = Done (s', mem') /\
    replay c s' mem' post = Done (sf, mf) /\
    ((rates sf !! b_height b = None /\ ~ block_rated c cm b /\ rates s' = rates cm)
     \/
     (exists m s1 s2,
        rates sf !! b_height b = Some m /\ block_rated c cm b /\ rates cm !! b_height b = None /\
        is_empty_map m = false /\ rates s1 = <[b_height b := m]> (rates cm) /\
        holding_pass_over cm (b_height b) s1 m
          (fst (get_averages cm (c_AveragePeriod c) mem (last_rated_below sf (b_height b))))
          (window sf (b_height b)) = Ok s2 /\
        window s1 (b_height b) = window sf (b_height b) /\
        forall g, In g (window sf (b_height b)) <-> 0 <= g /\ first_rated_above sf g (b_height b))).
Proof.
  intros Hinc Hs0 H Htca.
  destruct (chain_block_window _ _ _ _ _ _ _ _ Hinc H) as (cm & mem & s' & mem' & Hpre & Hstep & Hpost & A1 & A2 & A3 & W).
  exists cm, mem, s', mem'. split; [exact Hpre|]. split; [exact Hstep|]. split; [exact Hpost|].
  destruct (heights_from_split pre h0 b post Hinc) as (_ & _ & I3 & _).
  assert (Hcm : rates cm !! b_height b = None) by (rewrite A3 by lia; apply Hs0; exact I3).
  destruct (step_block_rated_dichotomy _ _ _ _ _ Hstep Htca)
    as [(NB & E)|(BR & Hn & m & s1 & s2 & Hm & E1 & Hap & W1 & E3)].
  - left. split; [|split; [exact NB|exact E]]. rewrite <- A2 by lia. rewrite E. exact Hcm.
  - right. exists m, s1, s2.
    assert (Hsf : rates sf !! b_height b = Some m) by (rewrite <- A2 by lia; rewrite E3; apply lookup_insert).
    split; [exact Hsf|]. split; [exact BR|]. split; [exact Hn|]. split; [exact Hm|]. split; [exact E1|].
    assert (EL : last_rated_below cm (b_height b) = last_rated_below sf (b_height b))
      by (apply last_rated_below_agree; exact A1).
    split; [rewrite <- EL, <- W, <- W1; rewrite <- apply_holding_pass_over; exact Hap|].
    split; [rewrite W1; exact W|].
    intros g. apply window_iff_first_rated_above. exists m. exact Hsf.
Qed.

(* exactly once along the chain: among the blocks of the chain whose height is rated in the final state (the ones that
   ran a holding pass), at most one has g in its window ... *)
Theorem chain_held_height_at_most_one_block h0 bs sf g b1 b2 :
  increasing_from h0 bs ->
  In b1 bs -> In b2 bs -> rated sf (b_height b1) -> rated sf (b_height b2) ->
  In g (window sf (b_height b1)) -> In g (window sf (b_height b2)) -> b1 = b2.
Proof.
  intros Hinc Hb1 Hb2 R1 R2 G1 G2.
  apply (heights_from_height_inj bs h0 b1 b2 Hinc Hb1 Hb2).
  exact (held_height_in_one_window sf g _ _ R1 R2 G1 G2).
Qed.

(* ... and exactly one — the block at the least rated height above g — as soon as the chain has a rated block above g
   (g a height of the chain's era: h0 <= g + 1, so that every rated height above g belongs to a block of the chain) *)
Theorem chain_held_height_exactly_one_block h0 bs s0 m0 sf mf g b0 :
  increasing_from h0 bs -> (forall k, h0 <= k -> rates s0 !! k = None) ->
  replay c s0 m0 bs = Done (sf, mf) ->
  0 <= g -> h0 <= g + 1 -> In b0 bs -> g < b_height b0 -> rated sf (b_height b0) ->
  exists b, In b bs /\ first_rated_above sf g (b_height b) /\ b_height b <= b_height b0 /\
            In g (window sf (b_height b)) /\
            forall b', In b' bs -> rated sf (b_height b') -> In g (window sf (b_height b')) -> b' = b.
Proof.
  intros Hinc Hs0 H Hg Hh0 Hb0 Hlt R0.
  destruct (first_rated_above_exists sf g (b_height b0) Hg R0 Hlt) as (r & F & Hr).
  pose proof F as (Rr & Hgr & _).
  destruct (replay_new_rate_is_block bs s0 m0 sf mf r H (Hs0 r ltac:(lia)) Rr) as (b & Hb & <-).
  exists b. split; [exact Hb|]. split; [exact F|]. split; [exact Hr|].
  assert (G : In g (window sf (b_height b))) by (apply (window_iff_first_rated_above sf _ g Rr); auto).
  split; [exact G|].
  intros b' Hb' R' G'. exact (chain_held_height_at_most_one_block h0 bs sf g b' b Hinc Hb' Hb R' Rr G' G).
Qed.

(* a block strictly between g and the first rated height above g is unrated in sf: by chain_holding_pass it ran no
   holding pass (the batch waits); a rated block after the first rated height does not have g in its window *)
Theorem chain_waits_until_first_rated sf g r k :
  first_rated_above sf g r -> (g < k < r -> rates sf !! k = None) /\ (r < k -> 0 <= r -> ~ In g (window sf k)).
Proof.
  intros (Rr & Hgr & M). split.
  - intros Hk. destruct (rated_dec sf k) as [Rk|N]; [|exact N]. specialize (M k Rk ltac:(lia)). lia.
  - intros Hk H0. destruct Rr as (m & Hm). apply (held_height_not_revisited sf r k g m Hm); lia.
Qed.

End Chain.

Print Assumptions step_block_rated_dichotomy.
Print Assumptions chain_block_window.
Print Assumptions chain_holding_pass.
Print Assumptions chain_held_height_at_most_one_block.
Print Assumptions chain_held_height_exactly_one_block.
Print Assumptions chain_waits_until_first_rated.


(* the example chain (conversion 602 held at 102, block 103 unrated, executed at 104),
   computed: in the final state 104 is the only rated height, its window is 0..103, it contains 102, and the batch
   602 entered at 102 carries the executing height 104 *)
Example ex_chain_window_computed :
  match replay ex_cfg genesis empty_cache ex_chain with
  | Done (s, _) =>
      is_rated s 104 && negb (is_rated s 103) && negb (is_rated s 102) && negb (is_rated s 101) &&
      (last_rated_below s 104 =? 0) && existsb (Z.eqb 102) (window s 104) &&
      (Nat.eqb (length (window s 104)) 104) &&
      existsb (fun r => (hb_hash r =? 602) && (hb_height r =? 102) && (hb_exec r =? 104)) (hist s)
  | _ => false
  end = true.
Proof. vm_compute. reflexivity. Qed.

Lemma ex_chain_increasing : increasing_from 100 ex_chain.
Proof. apply increasing_fromb_spec. vm_compute. reflexivity. Qed.

(* the last two blocks of ex_chain, for the statement of ex_chain_holding_pass *)
Definition b103 := ex_block 103 None (Some [ex_transfer 603 1000]) [].
Definition b104 := ex_block 104 (ex_opr 104 None) None [].
Lemma ex_split3 : ex_chain = firstn 3 ex_chain ++ b104 :: [].
Proof. reflexivity. Qed.
Lemma ex_split2 : ex_chain = firstn 2 ex_chain ++ b103 :: [b104].
Proof. reflexivity. Qed.

Example ex_chain_holding_pass :
  exists sf mf, replay ex_cfg genesis empty_cache ex_chain = Done (sf, mf) /\
    first_rated_above sf 102 104 /\ In 102 (window sf 104) /\ rates sf !! 103 = None /\
    (exists cm mem s' mem' m s1 s2,
        replay ex_cfg genesis empty_cache (firstn 3 ex_chain) = Done (cm, mem) /\
        step_block ex_cfg cm mem b104 = Done (s', mem') /\
        rates sf !! 104 = Some m /\ block_rated ex_cfg cm b104 /\
        holding_pass_over ex_cfg cm 104 s1 m
          (fst (get_averages cm (c_AveragePeriod ex_cfg) mem (last_rated_below sf 104))) (window sf 104) = Ok s2) /\
    (exists cm mem s' mem',
        replay ex_cfg genesis empty_cache (firstn 2 ex_chain) = Done (cm, mem) /\
        step_block ex_cfg cm mem b103 = Done (s', mem') /\
        ~ block_rated ex_cfg cm b103 /\ rates s' = rates cm).
Proof.
  pose proof ex_chain_window_computed as HC.
  destruct (replay ex_cfg genesis empty_cache ex_chain) as [[sf mf]| | |] eqn:E; [|discriminate HC..].
  exists sf, mf. split; [reflexivity|].
  rewrite !andb_true_iff, negb_true_iff in HC. destruct HC as (((((((R & N) & _) & _) & _) & G) & _) & _).
  unfold is_rated in R, N. apply existsb_eqb_In in G.
  assert (R104 : rated sf 104) by (unfold rated; destruct (rates sf !! 104); [eauto|discriminate R]).
  assert (N103 : rates sf !! 103 = None) by (destruct (rates sf !! 103); [discriminate N|reflexivity]).
  pose proof (proj1 (window_iff_first_rated_above sf 104 102 R104) G) as (_ & F).
  split; [exact F|]. split; [exact G|]. split; [exact N103|].
  assert (Hg : forall k, 100 <= k -> rates genesis !! k = None) by (intros; apply lookup_empty).
  assert (T104 : c_TransactionConversionActivation ex_cfg <= b_height b104) by (vm_compute; discriminate).
  assert (T103 : c_TransactionConversionActivation ex_cfg <= b_height b103) by (vm_compute; discriminate).
  pose proof ex_chain_increasing as Hinc.
  split.
  - rewrite ex_split3 in E, Hinc.
    destruct (chain_holding_pass ex_cfg 100 genesis empty_cache _ _ _ sf mf Hinc Hg E T104)
      as (cm & mem & s' & mem' & Hpre & Hstep & _ & [(Hnone & _)|(m & s1 & s2 & Hsf & BR & _ & _ & _ & Hpass & _)]).
    + destruct R104 as (m & Hm). discriminate (eq_trans (eq_sym Hm) Hnone).
    + exists cm, mem, s', mem', m, s1, s2. change (b_height b104) with 104 in *. auto.
  - rewrite ex_split2 in E, Hinc.
    destruct (chain_holding_pass ex_cfg 100 genesis empty_cache _ _ _ sf mf Hinc Hg E T103)
      as (cm & mem & s' & mem' & Hpre & Hstep & _ & [(_ & NB & Er)|(m & s1 & s2 & Hsf & _)]).
    + exists cm, mem, s', mem'. auto.
    + discriminate (eq_trans (eq_sym Hsf) N103).
Qed.
Print Assumptions ex_chain_holding_pass.
