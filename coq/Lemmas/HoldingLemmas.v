(* Lemmas/HoldingLemmas.v — C07 / C12: an arriving conversion waits in holding; what the rate
   selection records; the window of heights the holding pass of a rated block looks at. *)
From Model Require Import Block.
From Lemmas Require Import DbLemmas LedgerLemmas BlockLemmas.
From Gen Require Import Consts.
From Coq Require Import Lia.
Open Scope Z_scope.

Section WithCfg.
Variable c : cfg.

(* a valid batch that contains a conversion is never applied by the block it arrives in: it gets
   its history rows (status pending) and a holding row at that height; no balance moves *)
Theorem conversion_waits_in_holding h s order e txs s' :
  entry_valid_at c e h = Some txs -> has_conversions txs = true ->
  is_replay s (e_hash e) = false -> hist_has s (e_hash e) = false ->
  apply_entry c h s order e = Ok s' ->
  bal s' = bal s /\ holding s' = holding s ++ [{| h_entry := e; h_height := h |}] /\
  exists s1, insert_history s e order h txs = Ok s1.
Proof.
  intros Hv Hc Hr Hh H. unfold apply_entry in H. rewrite Hv, Hr, Hh in H.
  apply rbind_ok in H as (s1 & H1 & H2). rewrite Hc in H2. apply insert_holding_ok in H2 as (_ & ->).
  split; [exact (insert_history_bal _ _ _ _ _ _ H1)|]. split; [|eexists; exact H1].
  (* the history rows touch neither the balances nor the holding table *)
  apply insert_history_ok in H1 as (_ & lks & ->). reflexivity.
Qed.

(* the rate selection from 2.0 on: what is recorded when only one side has winners *)
Lemma select_rates_only_opr h o : o <> [] -> select_rates c h o [] = RSel o.
Proof. destruct o; [congruence|reflexivity]. Qed.
Lemma select_rates_only_spr h s : s <> [] -> select_rates c h [] s = RSel s.
Proof. destruct s; [congruence|reflexivity]. Qed.
Lemma select_rates_none h : select_rates c h [] [] = RErr.
Proof. reflexivity. Qed.
(* both sides: one asset, the three regimes *)
Lemma band_one_asset h n ov sv :
  band_filter c h (h <? c_V20DevRewardsHeightActivation c) [(n, ov)] [(n, sv)] =
    let v0 := h <? c_V20DevRewardsHeightActivation c in
    let tol := if v0 then (if 100000 <=? sv then tol_01 else tol_1)
               else (if c_V202EnhanceActivation c <=? h then tol_25 else tol_10) in
    if in_band tol ov sv then RSel [(n, ov)]                              (* inside the band: the OPR value *)
    else if negb v0 && (c_V202EnhanceActivation c <=? h) then RSel [(n, 0)]   (* outside, from 2.0.2: rate 0 *)
    else RErr.                                                            (* outside, before: no rates for the block *)
Proof. cbn [band_filter]. rewrite Z.eqb_refl. cbv zeta. destruct (in_band _ ov sv); [reflexivity|]. destruct (_ && _); reflexivity. Qed.

(* the heights a rated block [cur] looks at: from the most recent rated height below it up to cur-1 *)
Definition window (s : db) (cur : Z) : list Z :=
  zrange (last_rated_below s cur) (Z.to_nat (cur - last_rated_below s cur)).

Lemma window_spec s cur g : In g (window s cur) <-> last_rated_below s cur <= g < cur.
Proof. unfold window. rewrite in_zrange_iff. lia. Qed.

(* once a rated height c1 lies between a held height g and a later block c2, c2 does not look at g:
   the batch held at g was looked at by (at most) the first rated block after g and by no later one *)
Theorem held_height_not_revisited s2 c1 c2 g m :
  rates s2 !! c1 = Some m -> 0 <= c1 < c2 -> g < c1 -> ~ In g (window s2 c2).
Proof.
  intros Hr Hc Hg Hin. apply window_spec in Hin. pose proof (last_rated_below_ge s2 c2 c1 m Hr (proj2 Hc)). lia.
Qed.

(* ... and the first rated block after g does look at it (when g is not below the previous rated height) *)
Theorem held_height_visited s cur g : 0 < cur -> last_rated_below s cur <= g < cur -> In g (window s cur).
Proof. intros _ H. apply window_spec. exact H. Qed.

(* apply_holding iterates exactly over this window *)
Lemma apply_holding_uses_window cm cur s rates avgs :
  apply_holding c cm cur s rates avgs =
  (let? st := fold_left (fun acc hh => apply_held_height c cm cur rates avgs hh acc) (window s cur) (Ok (s, [])) in
   let '(s1, pegs) := st in
   if (c_V4OPRUpdate c <=? cur) && (cur <? c_V20HeightActivation c) then
     match bank s1 !! cur with
     | None => record_peg_requests c cur s1 pegs rates avgs (wrap64 (-1)) cur
     | Some (amount, _, _) => record_peg_requests c cur s1 pegs rates avgs amount cur
     end
   else Ok s1).
Proof. reflexivity. Qed.
End WithCfg.

(* ApplyTransactionBatchesInHolding as an induction principle: [P s pegs] speaks of the state and of the batches
   collected for the bank so far; what apply_held keeps on each held entry of the window and the bank step keeps
   (emptying the collection) is kept by the whole pass *)
Section HoldingInd.
Variable c : cfg.
Variable P : db -> list (hash * list tx) -> Prop.
Variables (cm : db) (cur : Z) (rates avgs : gmap ticker Z).

Lemma apply_held_height_ind hh :
  (forall e s pegs s' isp, In e (holding_at cm hh) -> P s pegs -> apply_held c cur rates avgs s e hh = Ok (s', isp) ->
     P s' (if isp then pegs ++ [(e_hash e, default [] (e_batch e))] else pegs)) ->
  (forall s pegs bankamt bh s', P s pegs -> record_peg_requests c cur s pegs rates avgs bankamt bh = Ok s' -> P s' []) ->
  forall s pegs s' pegs', P s pegs -> apply_held_height c cm cur rates avgs hh (Ok (s, pegs)) = Ok (s', pegs') -> P s' pegs'.
Proof.
  intros Hheld Hbank s pegs s' pegs' HP H. unfold apply_held_height in H. cbn [rbind] in H.
  apply rbind_ok in H as ([s1 pegs1] & H1 & H2).
  assert (HP1 : P s1 pegs1).
  { refine (fold_res_invariant_in (fun st => P (fst st) (snd st)) _ _ _ (s, pegs) (s1, pegs1) HP H1).
    intros [s0 p0] e [s2 p2] Hin HP0 Hs. apply rbind_ok in Hs as ([s3 isp] & Ha & Hr). inversion Hr; subst s2 p2.
    exact (Hheld e s0 p0 s3 isp Hin HP0 Ha). }
  destruct (_ && _); [|inversion H2; subst; exact HP1].
  apply rbind_ok in H2 as (s2 & Hr & Hk). inversion Hk; subst. exact (Hbank _ _ _ _ _ HP1 Hr).
Qed.

Lemma apply_holding_ind s0 :
  (forall hh e s pegs s' isp, last_rated_below s0 cur <= hh < cur -> In e (holding_at cm hh) -> P s pegs ->
     apply_held c cur rates avgs s e hh = Ok (s', isp) ->
     P s' (if isp then pegs ++ [(e_hash e, default [] (e_batch e))] else pegs)) ->
  (forall s pegs bankamt bh s', P s pegs -> record_peg_requests c cur s pegs rates avgs bankamt bh = Ok s' -> P s' []) ->
  forall s', P s0 [] -> apply_holding c cm cur s0 rates avgs = Ok s' -> exists pegs, P s' pegs.
Proof.
  intros Hheld Hbank s' HP H. rewrite apply_holding_uses_window in H. apply rbind_ok in H as ([s1 pegs] & H1 & H2).
  assert (HP1 : P s1 pegs).
  { refine (fold_strict_invariant (fun st => P (fst st) (snd st)) _ _
              (fun hh => apply_held_height_strict c cm cur rates avgs hh) _ (s0, []) (s1, pegs) HP H1).
    intros [s p] hh [s2 p2] Hin HPs E. apply window_spec in Hin.
    refine (apply_held_height_ind hh _ Hbank s p s2 p2 HPs E). intros e s3 p3 s4 isp. apply Hheld. exact Hin. }
  destruct (_ && _); [|inversion H2; subst; eauto].
  destruct (bank s1 !! cur) as [[[am ?] ?]|]; exists []; exact (Hbank _ _ _ _ _ HP1 H2).
Qed.
End HoldingInd.
