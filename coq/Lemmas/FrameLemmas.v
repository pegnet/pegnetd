(* Lemmas/FrameLemmas.v — the preservation scheme in its hypothesis-by-hypothesis form: if a
   projection π of the database moves along a preorder R under each storage operation, it does
   so under a whole block.  It is [step_block_writes] (BlockLemmas.v) read through
   [bwrites_pres]; with R := eq it gives frame properties (what a block does not touch), with
   an inclusion order monotonicity (rows are never deleted, recorded rates never change). *)
From Model Require Import Block.
From Lemmas Require Import DbLemmas LedgerLemmas BlockLemmas.
From Gen Require Import Consts.
From Coq Require Import RelationClasses.
Open Scope Z_scope.

Section Pres.
Context {A : Type} (π : db -> A) (R : A -> A -> Prop) {PO : PreOrder R}.
Hypothesis Hbal : forall s v, R (π s) (π (set_bal s v)).
Hypothesis Hrel : forall s a hs i t cv, R (π s) (π (insert_relation s a hs i t cv)).
Hypothesis Hexec : forall s hs code, R (π s) (π (set_executed s hs code)).
Hypothesis Hhb : forall s r s', insert_hbatch s r = Ok s' -> R (π s) (π s').
Hypothesis Hamt : forall s hs i amt, R (π s) (π (set_to_amount s hs i amt)).
Hypothesis Hpeg : forall s hs i amt o, R (π s) (π (set_peg_request_amounts s hs i amt o)).
Hypothesis Hhtx : forall s r lk s', insert_htx s r lk = Ok s' -> R (π s) (π s').
Hypothesis Hhold : forall s e h s', insert_holding s e h = Ok s' -> R (π s) (π s').
Hypothesis Hbank : forall s h a s', insert_bank s h a = Ok s' -> R (π s) (π s').
Hypothesis Hubank : forall s h u r s', update_bank s h u r = Ok s' -> R (π s) (π s').

Section WithCfg.
Variable c : cfg.

Hypothesis Hsnaps : forall s cu pa, R (π s) (π (set_snaps s cu pa)).
Hypothesis Hgrade : forall h s v s', insert_grade h s v = Ok s' -> R (π s) (π s').
Variable Ph : Z -> Prop.   (* the heights at which rates may be inserted *)
Hypothesis Hrates : forall cm h s a ph s', Ph h -> insert_rates cm h s a ph = Ok s' -> R (π s) (π s').
Hypothesis Hsynced : forall s h s', insert_synced s h = Ok s' -> R (π s) (π s').

Theorem pr_step_block cm mem b s' mem' : Ph (b_height b) -> step_block c cm mem b = Done (s', mem') -> R (π cm) (π s').
Proof using All.
  intros HP H. apply step_block_writes in H as (s1 & H1 & H2).
  transitivity (π s1); [|eapply Hsynced; exact H2].
  revert H1. apply (bwrites_pres π R). intros s s0 [? ? Hl|? ? ? Hg|? ? ? ? ? Hr];
    [|eapply Hgrade; exact Hg|eapply Hrates; [exact HP|exact Hr]].
  destruct Hl as [? ? ? ? ? ? ? ? Ha|? ? ? ? ? ? ? ? Hs| | | | | | | | | |]; eauto.
  - apply add_to_balance_ok in Ha as (_ & _ & ->). apply Hbal.
  - apply sub_from_balance_ok in Hs as (_ & _ & _ & ->). apply Hbal.
Qed.
End WithCfg.
End Pres.
