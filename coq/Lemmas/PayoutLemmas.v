(* Lemmas/PayoutLemmas.v — C14 / C16 / C01: the proportional payout with dust is a function of
   the request SET (not of the order Go's map iteration happens to take), pays out exactly the
   bank when the requests reach it, and the staking stake / order facts. *)
From Model Require Import Block.
From Lemmas Require Import ArithLemmas DbLemmas.
From Gen Require Import Consts.
From Coq Require Import Lia Permutation.
Open Scope Z_scope.

Lemma total_requested_big_perm (a b : requests) : Permutation a b -> total_requested_big a = total_requested_big b.
Proof. unfold total_requested_big. induction 1; cbn [fold_right]; lia. Qed.

(* [better] is a strict total order on requests with distinct txids: the dust winner is the
   maximum, hence the same for every enumeration of the map *)
Lemma txid_ltb_irrefl a : txid_ltb a a = false.
Proof. unfold txid_ltb. rewrite !Z.ltb_irrefl, Z.eqb_refl. reflexivity. Qed.

Definition best (w : txid * Z) (rs : requests) : Prop :=
  In w rs /\ forall r, In r rs -> r = w \/ better w r = true.

Lemma better_iff (a b : txid * Z) :
  better a b = true <->
  snd b < snd a \/ (snd a = snd b /\ (fst (fst a) < fst (fst b) \/ (fst (fst a) = fst (fst b) /\ snd (fst a) < snd (fst b)))).
Proof.
  unfold better, txid_ltb. rewrite orb_true_iff, andb_true_iff, orb_true_iff, andb_true_iff.
  rewrite !Z.ltb_lt, !Z.eqb_eq. tauto.
Qed.
Lemma better_total (a b : txid * Z) : fst a <> fst b -> better a b = true \/ better b a = true.
Proof.
  intros N. rewrite !better_iff. destruct a as [[ah ai] av], b as [[bh bi] bv]; cbn in *.
  assert (ah <> bh \/ ai <> bi) by (destruct (Z.eq_dec ah bh), (Z.eq_dec ai bi); subst; auto; exfalso; apply N; reflexivity).
  lia.
Qed.
Lemma better_trans (a b d : txid * Z) : better a b = true -> better b d = true -> better a d = true.
Proof. rewrite !better_iff. lia. Qed.
Lemma better_asym (a b : txid * Z) : better a b = true -> better b a = true -> False.
Proof. rewrite !better_iff. lia. Qed.

Lemma dust_winner_best rs : NoDup (map fst rs) -> forall w, dust_winner rs = Some w -> best w rs.
Proof.
  induction rs as [|r rs IH]; intros ND w H; cbn [dust_winner] in H; [discriminate|].
  inversion ND as [|? ? Hnin ND']; subst.
  destruct (dust_winner rs) as [w0|] eqn:E.
  - specialize (IH ND' w0 eq_refl). destruct IH as [Hin Hall].
    assert (Hne : fst r <> fst w0) by (intros Heq; apply Hnin; rewrite Heq; apply in_map; exact Hin).
    destruct (better r w0) eqn:Eb; injection H as Hw; subst w.
    + split; [left; reflexivity|]. intros x [<-|Hx]; [left; reflexivity|]. right.
      destruct (Hall x Hx) as [->|Hb]; [exact Eb|eapply better_trans; eauto].
    + split; [right; exact Hin|]. intros x [Hx|Hx]; [|apply Hall; exact Hx]. subst x. right.
      destruct (better_total r w0 Hne) as [Hb|Hb]; [congruence|exact Hb].
  - inversion H; subst. apply dust_winner_none in E as ->.
    split; [left; reflexivity|]. intros x [<-|[]]. left; reflexivity.
Qed.

Lemma best_unique rs w1 w2 : NoDup (map fst rs) -> best w1 rs -> best w2 rs -> w1 = w2.
Proof.
  intros ND [I1 A1] [I2 A2]. destruct (A1 w2 I2) as [->|B1]; [reflexivity|].
  destruct (A2 w1 I1) as [->|B2]; [reflexivity|]. exfalso. eapply better_asym; eauto.
Qed.

Lemma best_perm a b w : Permutation a b -> best w a -> best w b.
Proof.
  intros P [I A]. split; [eapply Permutation_in; eauto|].
  intros r Hr. apply A. eapply Permutation_in; [apply Permutation_sym; exact P|exact Hr].
Qed.

Theorem dust_winner_perm a b : Permutation a b -> NoDup (map fst a) -> dust_winner a = dust_winner b.
Proof.
  intros P ND.
  assert (NDb : NoDup (map fst b)) by (eapply Permutation_NoDup; [apply Permutation_map; exact P|exact ND]).
  destruct (dust_winner a) as [wa|] eqn:Ea; destruct (dust_winner b) as [wb|] eqn:Eb.
  - f_equal. eapply (best_unique b); [exact NDb| |apply dust_winner_best; assumption].
    eapply best_perm; [exact P|apply dust_winner_best; assumption].
  - apply dust_winner_none in Eb as ->. apply Permutation_sym, Permutation_nil in P. subst. discriminate.
  - apply dust_winner_none in Ea as ->. apply Permutation_nil in P. subst. discriminate.
  - reflexivity.
Qed.

(* Payouts as a function of the request set: any two enumerations of the same map give every
   txid the same payout *)
Theorem payouts_perm bank (a b : requests) :
  Permutation a b -> NoDup (map fst a) -> Permutation (payouts bank a) (payouts bank b).
Proof.
  intros P ND. unfold payouts.
  destruct a as [|a0 a'] eqn:Ea; [apply Permutation_nil in P; subst; constructor|]. rewrite <- Ea in *.
  destruct b as [|b0 b'] eqn:Eb; [apply Permutation_sym, Permutation_nil in P; subst; discriminate|]. rewrite <- Eb in *.
  rewrite <- (total_requested_big_perm a b P).
  destruct (_ && _); [exact P|].
  set (tot := total_requested_big a).
  set (f := fun r : txid * Z => (fst r, payout_big (snd r) bank tot)).
  assert (Pb : Permutation (map f a) (map f b)) by (apply Permutation_map; exact P).
  pose proof (total_requested_big_perm _ _ Pb) as Hsum. unfold total_requested_big in Hsum. rewrite <- Hsum. rewrite <- (dust_winner_perm a b P ND).
  destruct (dust_winner a); [apply Permutation_map; exact Pb|exact Pb].
Qed.

Theorem payouts_never_exceed_bank bank (rs : requests) :
  reqs_ok rs -> txids_nodup rs -> 0 <= bank < two64 ->
  sum_snd (payouts bank rs) <= bank /\
  (bank <= total_requested_big rs -> rs <> [] -> sum_snd (payouts bank rs) = bank) /\
  (total_requested_big rs < bank -> payouts bank rs = rs).
Proof.
  intros Hok ND Hb.
  pose proof (payouts_below bank rs Hok Hb) as Below. pose proof (payouts_total bank rs Hok ND Hb) as Reach.
  split; [|split; [intros; apply Reach; assumption|exact Below]].
  destruct rs as [|r0 rs0] eqn:E; [cbn; lia|]. rewrite <- E in *.
  destruct (Z.lt_ge_cases (total_requested_big rs) bank) as [Hlt|Hge].
  - rewrite (Below Hlt). change (sum_snd rs) with (total_requested_big rs). lia.
  - rewrite Reach; [lia|rewrite E; discriminate|exact Hge].
Qed.

Section Stake.
Variable c : cfg.

Definition stake_step (h : Z) (rates : gmap ticker Z) (past cur : gmap (addr * ticker) Z) (a : addr)
           (acc : option Z) (t : Z) : option Z :=
  match acc with
  | None => None
  | Some tot =>
    if t =? PTickerPEG then Some tot
    else
      let b := Z.min (get_bal cur a t) (get_bal past a t) in
      if b =? 0 then Some tot
      else if ((rate_of rates t =? 0) || (rate_of rates PTickerUSD =? 0)) && (c_V202EnhanceActivation c <=? h) then Some tot
      else match convert_h c h b (rate_of rates t) (rate_of rates t) (rate_of rates PTickerUSD) (rate_of rates PTickerUSD) with
           | None => None
           | Some v => Some (tot + v)
           end
  end.
Lemma stake_of_fold h rates past cur a : stake_of c h rates past cur a = fold_left (stake_step h rates past cur a) all_tickers (Some 0).
Proof. reflexivity. Qed.

(* the stake of an address depends on the two snapshots only through the per-asset minimum: funds
   that arrived after the previous snapshot (or left before this one) earn nothing *)
Theorem stake_depends_on_minimum_only h rates past cur past' cur' a :
  (forall t, Z.min (get_bal cur a t) (get_bal past a t) = Z.min (get_bal cur' a t) (get_bal past' a t)) ->
  stake_of c h rates past cur a = stake_of c h rates past' cur' a.
Proof.
  intros Hm. rewrite !stake_of_fold. generalize (Some 0) as acc. generalize all_tickers as l.
  induction l as [|t l IH]; intros acc; cbn [fold_left]; [reflexivity|].
  rewrite <- IH. f_equal. unfold stake_step. destruct acc; [|reflexivity]. rewrite (Hm t). reflexivity.
Qed.

Theorem stake_absent_is_zero h rates past cur a :
  (forall t, get_bal past a t = 0) -> (forall t, 0 <= get_bal cur a t) -> stake_of c h rates past cur a = Some 0.
Proof.
  intros Hp Hc. rewrite stake_of_fold. generalize all_tickers as l.
  induction l as [|t l IH]; cbn [fold_left]; [reflexivity|].
  assert (stake_step h rates past cur a (Some 0) t = Some 0) as ->; [|exact IH].
  unfold stake_step. destruct (t =? PTickerPEG); [reflexivity|].
  rewrite Hp. specialize (Hc t). rewrite Z.min_r by lia. reflexivity.
Qed.
End Stake.

(* the mock txids of a staking payout are distinct: the index is the position in the sorted list *)
Lemma index_from_fst {A} (l : list A) : forall i, map fst (index_from i l) = zrange i (length l).
Proof. induction l as [|x l IH]; intros i; cbn; [reflexivity|]. rewrite IH. reflexivity. Qed.
Lemma in_index_from {A} (l : list A) : forall i j x,
  In (j, x) (index_from i l) <-> i <= j /\ nth_error l (Z.to_nat (j - i)) = Some x.
Proof.
  induction l as [|y l IH]; intros i j x; cbn [index_from In].
  - split; [intros []|intros [_ H]; destruct (Z.to_nat (j - i)); discriminate].
  - rewrite IH. destruct (Z.eq_dec j i) as [->|N].
    + rewrite Z.sub_diag. change (Z.to_nat 0) with O. cbn [nth_error]. split; [intros [E|[Hle _]]; [inversion E; split; [lia|reflexivity]|lia]|].
      intros [_ E]. left. congruence.
    + split; [intros [E|[Hle Hn]]; [congruence|]|intros [Hle Hn]; right];
        replace (Z.to_nat (j - i)) with (S (Z.to_nat (j - (i + 1)))) in * by lia; (split; [lia|exact Hn]).
Qed.
Lemma index_from_in {A} (l : list A) i p : In p (index_from i l) -> In (snd p) l.
Proof. destruct p as [j x]. intros H. apply in_index_from in H as [_ H]. eapply nth_error_In, H. Qed.
Lemma staking_txids_distinct (txh : Z) (lst : list (addr * Z)) :
  NoDup (map fst (map (fun x : Z * (addr * Z) => ((txh, fst x), snd (snd x))) (index_from 0 lst))).
Proof.
  rewrite map_map. cbn [fst].
  assert (E : map (fun x : Z * (addr * Z) => (txh, fst x)) (index_from 0 lst) = map (fun i => (txh, i)) (zrange 0 (length lst))).
  { rewrite <- (index_from_fst lst 0). rewrite map_map. reflexivity. }
  rewrite E. apply FinFun.Injective_map_NoDup; [intros x y H; inversion H; reflexivity|apply zrange_NoDup].
Qed.

(* equal stakes are ordered by address (the repair): (stake, address) is a strict total order,
   so the sorted list — whose positions become the payout txids — is the same
   for every enumeration of the map *)
Lemma stake_before_iff (x y : addr * Z) :
  stake_before x y = true <-> snd x < snd y \/ (snd x = snd y /\ fst x < fst y).
Proof.
  unfold stake_before. rewrite orb_true_iff, andb_true_iff, !Z.ltb_lt, Z.eqb_eq. tauto.
Qed.

Lemma stake_before_trans x y z : stake_before x y = true -> stake_before y z = true -> stake_before x z = true.
Proof. rewrite !stake_before_iff. lia. Qed.
Lemma stake_before_irrefl x : stake_before x x = false.
Proof. apply not_true_is_false. rewrite stake_before_iff. lia. Qed.
Lemma stake_before_total x y : stake_before x y = false -> le_of stake_before y x.
Proof.
  intros H. apply not_true_iff_false in H. rewrite stake_before_iff in H. unfold le_of. rewrite stake_before_iff.
  destruct x as [a v], y as [a' v']. cbn [fst snd] in *.
  destruct (Z.eq_dec a a'), (Z.eq_dec v v'); [right; congruence|left; lia..].
Qed.

Lemma sort_stakes_in l y : In y (sort_stakes l) -> In y l.
Proof. apply (isort_in stake_before). Qed.
Theorem sort_stakes_order_independent a b :
  Permutation a b -> NoDup (map fst a) -> sort_stakes a = sort_stakes b.
Proof. intros P _. exact (isort_perm_eq stake_before stake_before_trans stake_before_total stake_before_irrefl a b P). Qed.
