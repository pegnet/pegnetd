(* Lemmas/TotalityBlockParts.v — C08 (sync liveness), totality of the writers of SyncBlock other than the
   transaction machinery: coinbase-style payouts (miners, stakers, developers, snapshot), the grading and
   rate tables, the sync-height bump.  Each lemma: from a [hist_closed] state with room for what is
   credited and fresh hashes, the function returns [Ok], keeps the invariants and says which batch-row
   hashes it added. *)
From Model Require Import Block.
From Lemmas Require Import ArithLemmas DbLemmas LedgerLemmas BlockLemmas PayoutLemmas ChainLemmas
     HistoryLemmas3 TotalityLemmas.
From Gen Require Import Consts.
From Coq Require Import Lia ZifyBool.
Open Scope Z_scope.
Open Scope list_scope.

Lemma keys_hist_keys s s' : keys s' = keys s -> hist_keys s' = hist_keys s.
Proof. unfold keys. congruence. Qed.

Lemma insert_hbatch_fresh s hb :
  ~ In (hb_hash hb) (hist_keys s) -> insert_hbatch s hb = Ok (set_hist s (hist s ++ [hb])).
Proof. intros Hf. unfold insert_hbatch. rewrite (hist_has_at_fresh _ _ _ Hf). reflexivity. Qed.

(* the logged credit of a fresh hash: in a closed state the hash has no transaction row either *)
Lemma credit_logged_total s a t v hb r lk n :
  hist_closed s -> valid_ticker t = true -> 0 <= v -> 0 <= n -> bal_room s (v + n) ->
  ~ In (hb_hash hb) (hist_keys s) -> ht_hash r = hb_hash hb ->
  exists s', credit_logged s a t v hb r lk = Ok s' /\ hist_closed s' /\ bal_room s' n /\
             hist_keys s' = hist_keys s ++ [hb_hash hb].
Proof.
  intros Hcl Ht Hv Hn Hr Hf Hh. pose proof (Hr a t) as Hat.
  (* the invariant comes with the writes *)
  enough (G : exists s', credit_logged s a t v hb r lk = Ok s' /\ bal_room s' n /\ hist_keys s' = hist_keys s ++ [hb_hash hb]).
  { destruct G as (s' & E & G). exists s'. split; [exact E|]. split; [|exact G].
    exact (lwrites_closed True _ _ _ _ (credit_logged_writes _ _ _ _ _ _ _ _ Hv Hh E) Hcl). }
  eexists. split; [|split].
  - apply credit_logged_iff. split; [exact Ht|]. split; [zl|]. split; [zl|].
    split; [exact (hist_has_at_fresh _ _ _ Hf)|]. split; [|reflexivity].
    apply htx_has_fresh. rewrite Hh. intros K. apply Hf, (proj1 Hcl), K.
  - eapply bal_room_credit; [exact Hv|exact Hn|exact Hr|reflexivity].
  - unfold hist_keys. cbn [hist set_htxs set_hist]. apply map_app.
Qed.

(* a fold of such payouts: the element x credits at most [cr x] and writes the batch rows [hs x]; the
   hashes are distinct and new, so each is still new when its turn comes *)
Lemma coinbase_fold_total {X} (f : db -> X -> res db) (cr : X -> Z) (hs : X -> list Z) (l : list X) :
  (forall x, In x l -> 0 <= cr x) ->
  (forall s x m, In x l -> hist_closed s -> 0 <= m -> bal_room s (cr x + m) -> (forall y, In y (hs x) -> ~ In y (hist_keys s)) ->
     exists s', f s x = Ok s' /\ hist_closed s' /\ bal_room s' m /\ hist_keys s' = hist_keys s ++ hs x) ->
  forall s n, hist_closed s -> 0 <= n -> bal_room s (fold_right (fun x a => cr x + a) 0 l + n) ->
  NoDup (flat_map hs l) -> (forall y, In y (flat_map hs l) -> ~ In y (hist_keys s)) ->
  exists s', fold_left (fun r x => let? s0 := r in f s0 x) l (Ok s) = Ok s' /\ hist_closed s' /\ bal_room s' n /\
             hist_keys s' = hist_keys s ++ flat_map hs l.
Proof.
  induction l as [|x l IH]; intros Hc Hf s n Hcl Hn Hr Hnd Hfr; cbn [fold_left fold_right flat_map] in *.
  - exists s. rewrite Z.add_0_l in Hr. rewrite app_nil_r. auto.
  - rewrite <- Z.add_assoc in Hr. pose proof (fold_sum_nonneg cr l (fun y Hy => Hc y (or_intror Hy))) as Hl.
    destruct (Hf s x (fold_right (fun x a => cr x + a) 0 l + n) (or_introl eq_refl) Hcl) as (s1 & E & Hcl1 & Hr1 & Hk1);
      [lia|exact Hr|intros y Hy; apply Hfr, in_or_app; left; exact Hy|].
    cbn [rbind]. rewrite E.
    destruct (IH (fun y Hy => Hc y (or_intror Hy)) (fun s0 y m Hy => Hf s0 y m (or_intror Hy)) s1 n Hcl1 Hn Hr1) as (s' & F & Hcl' & Hr' & Hk').
    + exact (nodup_app_r _ _ Hnd).
    + intros y Hy. rewrite Hk1. intros K. apply in_app_or in K as [K|K].
      * exact (Hfr y (in_or_app _ _ _ (or_intror Hy)) K).
      * exact (nodup_app_disjoint _ _ y Hnd K Hy).
    + exists s'. rewrite Hk', Hk1, <- app_assoc. auto.
Qed.

Definition winner_hashes (ws : list winner) : list Z :=
  flat_map (fun w => match w_addr w with Some _ => [w_hash w] | None => [] end) ws.
Definition winners_credit (ws : list winner) : Z :=
  fold_right (fun w acc => match w_addr w with Some _ => wrap64 (w_payout w) | None => 0 end + acc) 0 ws.
Lemma winners_credit_nonneg ws : 0 <= winners_credit ws.
Proof.
  apply (fold_sum_nonneg (fun w => match w_addr w with Some _ => wrap64 (w_payout w) | None => 0 end)).
  intros w _. destruct (w_addr w); [apply wrap64_nonneg|apply Z.le_refl].
Qed.

Lemma valid_peg : valid_ticker PTickerPEG = true.  Proof. reflexivity. Qed.

Lemma pay_winners_total ts ws s n :
  hist_closed s -> 0 <= n -> bal_room s (winners_credit ws + n) ->
  NoDup (winner_hashes ws) -> (forall x, In x (winner_hashes ws) -> ~ In x (hist_keys s)) ->
  exists s', pay_winners s ts ws = Ok s' /\ hist_closed s' /\ bal_room s' n /\ hist_keys s' = hist_keys s ++ winner_hashes ws.
Proof.
  unfold pay_winners, winners_credit, winner_hashes. apply coinbase_fold_total.
  - intros w _. destruct (w_addr w); [apply wrap64_nonneg|apply Z.le_refl].
  - intros s0 w m _ Hcl Hm Hr Hf. destruct (w_addr w) as [a|].
    + apply (credit_logged_total s0 a PTickerPEG (wrap64 (w_payout w))
               {| hb_hash := w_hash w; hb_height := w_height w; hb_order := 0; hb_ts := ts; hb_exec := w_height w |}
               _ [a] m Hcl valid_peg (wrap64_nonneg _) Hm Hr);
        [apply Hf; left; reflexivity|reflexivity].
    + exists s0. rewrite Z.add_0_l in Hr. rewrite app_nil_r. auto.
Qed.

Fixpoint dev_hashes_from (h j : Z) (l : list (Z * Z * Z * Z)) : list Z :=
  match l with [] => [] | _ :: l' => mock_hash_dev j h :: dev_hashes_from h (j + 1) l' end.
Definition dev_hashes (h : Z) : list Z := dev_hashes_from h 1 dev_rewards.
Definition dev_reward (after : bool) (d : Z * Z * Z * Z) : Z := let '(_, _, pre, post) := d in if after then post else pre.
Definition dev_credit_of (after : bool) (l : list (Z * Z * Z * Z)) : Z := fold_right (fun d acc => dev_reward after d + acc) 0 l.

Section WithCfg.
Variable c : cfg.

Definition dev_credit (h : Z) : Z := dev_credit_of (c_V202EnhanceActivation c <=? h) dev_rewards.

Lemma dev_rewards_reward_nonneg after d : In d dev_rewards -> 0 <= dev_reward after d.
Proof.
  intros Hin. pose proof dev_rewards_nonneg as T. rewrite forallb_forall in T. specialize (T d Hin).
  destruct d as [[[a bits] pre] post]. cbv beta iota in T. cbn [dev_reward]. destruct after; lia.
Qed.

Lemma dev_credit_nonneg h : 0 <= dev_credit h.
Proof. apply (fold_sum_nonneg (dev_reward (c_V202EnhanceActivation c <=? h))). intros d. apply dev_rewards_reward_nonneg. Qed.

(* credit and hashes of the indexed list DevelopersPayouts folds over *)
Lemma dev_indexed_sums after h : forall l i j,
  fold_right (fun x acc => dev_reward after (snd x) + acc) 0 (dev_indexed i j l) = dev_credit_of after l /\
  flat_map (fun x => [mock_hash_dev (snd (fst x)) h]) (dev_indexed i j l) = dev_hashes_from h j l.
Proof.
  unfold dev_credit_of. induction l as [|d l IH]; intros i j; [split; reflexivity|].
  cbn [dev_indexed fold_right flat_map dev_hashes_from snd fst app].
  destruct (IH (if 9 <? i + 1 then 0 else i + 1) (j + 1)) as [-> ->]. split; reflexivity.
Qed.

Lemma developers_payouts_total h ts s n :
  hist_closed s -> 0 <= n -> bal_room s (dev_credit h + n) ->
  NoDup (dev_hashes h) -> (forall x, In x (dev_hashes h) -> ~ In x (hist_keys s)) ->
  exists s', fst (developers_payouts c h ts s) = Ok s' /\ hist_closed s' /\ bal_room s' n /\
             hist_keys s' = hist_keys s ++ dev_hashes h.
Proof.
  intros Hcl Hn Hr Hnd Hf. rewrite developers_payouts_fst. unfold dev_credit, dev_hashes in *.
  destruct (dev_indexed_sums (c_V202EnhanceActivation c <=? h) h dev_rewards 0 1) as [Ecr Ehs].
  rewrite <- Ecr in Hr. rewrite <- Ehs in Hnd, Hf |- *.
  apply (coinbase_fold_total _ (fun x => dev_reward (c_V202EnhanceActivation c <=? h) (snd x))
           (fun x => [mock_hash_dev (snd (fst x)) h])); try assumption.
  - intros x Hx. eapply dev_rewards_reward_nonneg, dev_indexed_in, Hx.
  - intros s0 [[i j] [[[a bits] pre] post]] m Hin Hcl0 Hm Hr0 Hf0.
    pose proof (dev_rewards_reward_nonneg (c_V202EnhanceActivation c <=? h) _ (dev_indexed_in _ _ _ _ Hin)) as Hd.
    cbn [dev_reward snd fst] in *.
    apply (credit_logged_total s0 a PTickerPEG _ {| hb_hash := mock_hash_dev j h; hb_height := h; hb_order := 0; hb_ts := ts; hb_exec := h |}
             _ [a] m Hcl0 valid_peg Hd Hm Hr0); [apply Hf0; left; reflexivity|reflexivity].
Qed.

Definition snapshot_bank : Z := PerBlockAssetHolders * SnapshotRate.
Lemma snapshot_bank_nonneg : 0 <= snapshot_bank.
Proof. vm_compute. discriminate. Qed.

(* the two tests of the stake computation: every Convert succeeds, every total is a uint64 *)
Definition stakes_fit (h : Z) (rates : gmap ticker Z) (past cur : gmap (addr * ticker) Z) : bool :=
  forallb (fun a => match stake_of c h rates past cur a with Some v => v <? two64 | None => false end) (addrs_of cur).

Lemma snapshot_credits_total (payee : txid * Z -> addr) (pays : list (txid * Z)) s n :
  Forall (fun p => 0 <= snd p) pays -> 0 <= n -> bal_room s (sum_snd pays + n) ->
  exists s', staking_credits payee pays s = Ok s' /\ keys s' = keys s /\ bal_room s' n.
Proof.
  intros Hf Hn Hr. rewrite Forall_forall in Hf.
  apply (fold_res_total (fun st k => keys st = keys s /\ bal_room st k)
           (fun st p => add_to_balance st (payee p) PTickerPEG (snd p)) snd pays Hf); [|exact Hn|split; [reflexivity|exact Hr]].
  intros st p m Hin Hm [Hk Hr0].
  destruct (add_to_balance_total st (payee p) PTickerPEG (snd p) m valid_peg (Hf p Hin) Hm Hr0) as (s1 & A1 & A2 & A3 & _).
  exists s1. split; [exact A1|]. split; [congruence|exact A3].
Qed.

Lemma snapshot_payouts_total h ts rates s n :
  stakes_fit h rates (snap_cur s) (bal s) = true ->
  hist_closed s -> 0 <= n -> bal_room s (snapshot_bank + n) -> ~ In (mock_hash h) (hist_keys s) ->
  exists s', snapshot_payouts c h ts rates s = Ok s' /\ hist_closed s' /\ bal_room s' n /\
             incl (hist_keys s') (hist_keys s ++ [mock_hash h]).
Proof.
  intros Hfit Hcl Hn Hr Hfresh. change (stakes_in_range c h rates s = true) in Hfit.
  (* once it has run, the invariant is kept because all it does is a sequence of ledger writes *)
  enough (G : exists s', snapshot_payouts c h ts rates s = Ok s' /\ bal_room s' n /\ incl (hist_keys s') (hist_keys s ++ [mock_hash h])).
  { destruct G as (s' & E & G2 & G3). exists s'. split; [exact E|].
    split; [exact (lwrites_closed _ _ _ _ _ (snapshot_payouts_writes c True _ _ _ _ _ E) Hcl)|split; assumption]. }
  set (s1 := set_snaps s (bal s) (snap_cur s)).
  pose proof (staking_reqs_range c h rates s Hfit) as Hpos.
  destruct (staking_reqs c h rates s) as [|r0 rs0] eqn:E0.
  { exists s1. split; [apply snapshot_payouts_ok; split; [exact Hfit|left; split; [exact E0|reflexivity]]|].
    split; [eapply bal_room_weaken; [|exact Hr]; pose proof snapshot_bank_nonneg; lia|].
    intros x Hx. apply in_or_app. left. exact Hx. }
  assert (Hne : staking_reqs c h rates s <> []) by (rewrite E0; discriminate). rewrite <- E0 in Hpos. clear E0 r0 rs0.
  set (txh := mock_hash h). set (reqs := staking_reqs c h rates s) in *. set (payee := staking_payee c h rates s).
  set (pays := payouts (PerBlockAssetHolders * SnapshotRate) reqs).
  assert (Hreq : reqs_ok reqs) by (eapply Forall_impl, Hpos; cbv beta; lia).
  assert (Hnd : txids_nodup reqs) by (apply staking_txids_distinct).
  assert (Hbank : 0 <= PerBlockAssetHolders * SnapshotRate < two64) by (vm_compute; split; [discriminate|reflexivity]).
  assert (Hnn : Forall (fun r : txid * Z => 0 <= snd r) pays).
  { apply payouts_nonneg. eapply Forall_impl; [|exact Hreq]. cbn. intros; lia. }
  destruct (payouts_never_exceed_bank _ reqs Hreq Hnd Hbank) as (Hsum & _ & _). fold pays in Hsum.
  assert (Hfst : map fst pays = map fst reqs) by apply payouts_keys.
  pose proof (insert_hbatch_fresh s1 (staking_batch h ts) Hfresh) as B1. set (s2 := set_hist s1 _) in B1.
  (* a payout is at most their sum, the sum at most the bank: 4500 PEG x 144 *)
  assert (Hpay : forall p, In p pays -> fst (fst p) = txh /\ snd p < two63).
  { intros p Hp. split.
    - assert (K : In (fst p) (map fst reqs)) by (rewrite <- Hfst; apply in_map; exact Hp).
      unfold reqs, staking_reqs in K. rewrite map_map in K. apply in_map_iff in K as (y & <- & _). reflexivity.
    - destruct (sum_snd_ge_each pays Hnn) as [_ Hle]. rewrite Forall_forall in Hle. specialize (Hle p Hp).
      assert (PerBlockAssetHolders * SnapshotRate < two63) by (vm_compute; reflexivity). lia. }
  destruct (insert_rows_fresh (X := (Z * Z * Z)%type)
              (fun s' p => if two63 <=? snd p then Fail E_SQLARG else insert_htx s' (staking_row h payee p) [payee p])
              (staking_row h payee) (fun p => [payee p]) pays) with (s := s2)
    as (s3 & R1 & _ & R2 & _ & R4 & _).
  { intros s0 p Hp. destruct (Hpay p Hp) as [_ Hlt]. unfold txid in *. destruct (Z.leb_spec two63 (snd p)); [lia|reflexivity]. }
  { cbn [staking_row coinbase_row ht_hash ht_index]. rewrite (map_ext_in _ fst pays); [rewrite Hfst; exact Hnd|].
    intros [[ph pi] v] Hp. destruct (Hpay _ Hp) as [E _]. cbn [fst snd] in *. rewrite E. reflexivity. }
  { (* closed: the fresh hash has no transaction row *)
    intros p _. apply htx_has_fresh. intros K. apply Hfresh, (proj1 Hcl), K. }
  destruct (snapshot_credits_total payee pays s3 n Hnn Hn) as (s4 & C1 & C2 & C3).
  { eapply bal_room_eq; [rewrite R4; reflexivity|]. eapply bal_room_weaken; [|exact Hr]. unfold snapshot_bank. lia. }
  exists s4. split; [apply snapshot_payouts_ok; split; [exact Hfit|right; split; [exact Hne|exists s2, s3; split; [exact B1|split; [exact R1|exact C1]]]]|].
  assert (K4 : hist_keys s4 = hist_keys s ++ [txh]).
  { rewrite (keys_hist_keys _ _ C2). unfold hist_keys. rewrite R2. unfold s2. cbn [hist set_hist]. rewrite map_app. reflexivity. }
  split; [exact C3|rewrite K4; apply incl_refl].
Qed.

Definition winner_rows_fresh (h : Z) (s : db) : bool :=
  forallb (fun r' => negb (fst (fst (fst (fst r'))) =? h)) (winners s).

Lemma insert_grade_total h s v :
  grades s !! h = None -> winner_rows_fresh h s = true ->
  exists w, insert_grade h s v = Ok (set_grades s (<[h := v_short v]> (grades s)) (winners s ++ w)) /\
            Forall (fun r => fst (fst (fst (fst r))) = h) w.
Proof.
  intros Hg Hw. unfold insert_grade. rewrite Hg.
  set (rows := match v_winners v with [] => [] | _ :: _ => map (fun w0 : winner => (h, w_pos w0, w_hash w0, w_payout w0, default 0 (w_addr w0))) (v_graded v) end).
  assert (Hrows : Forall (fun r : Z * Z * hash * Z * addr => fst (fst (fst (fst r))) = h) rows).
  { unfold rows. destruct (v_winners v); [constructor|]. apply Forall_forall. intros r Hin. apply in_map_iff in Hin as (w0 & <- & _). reflexivity. }
  match goal with |- context [existsb ?f rows] => assert (E : existsb f rows = false) end.
  { apply not_true_is_false. intros K. apply existsb_exists in K as (r & Hin & K). apply existsb_exists in K as (r' & Hin' & K).
    unfold winner_rows_fresh in Hw. rewrite forallb_forall in Hw. specialize (Hw r' Hin').
    rewrite Forall_forall in Hrows. specialize (Hrows r Hin). cbv beta in *. unfold hash, addr in *. lia. }
  rewrite E. exists rows. split; [reflexivity|exact Hrows].
Qed.

(* what InsertRates is handed: distinct names, values that fit a SQL argument *)
Definition assets_wfb (l : list (Z * Z)) : bool :=
  negb (has_dup (map fst l)) && forallb (fun a => (0 <=? snd a) && (snd a <? two63)) l.
(* the map InsertRates writes in the floating phase *)
Definition rate_map_of (l : list (Z * Z)) : gmap ticker Z :=
  <[PTickerPEG := fold_left (fun acc a => if fst a =? PTickerPEG then snd a else acc) l 0]>
    (fold_left (fun m a => if valid_ticker (fst a) then <[fst a := snd a]> m else m)
               (filter (fun a => negb (fst a =? PTickerPEG)) l) ∅).

Lemma has_dup_false_filter (p : Z * Z -> bool) l : has_dup (map fst l) = false -> has_dup (map fst (filter p l)) = false.
Proof.
  induction l as [|a l IH]; [reflexivity|]. cbn [map has_dup filter]. intros H. apply orb_false_elim in H as [H1 H2].
  destruct (p a); [|apply IH; exact H2]. cbn [map has_dup]. rewrite (IH H2), orb_false_r.
  apply not_true_is_false. intros K. apply existsb_exists in K as (x & Hin & Hx).
  assert (T : existsb (Z.eqb (fst a)) (map fst l) = true).
  { apply existsb_exists. exists x. split; [|exact Hx]. apply in_map_iff in Hin as (y & <- & Hy). apply filter_In in Hy as [Hy _]. apply in_map; exact Hy. }
  congruence.
Qed.

Lemma insert_rates_floating_eq cm h s l :
  rates s !! h = None -> assets_wfb l = true ->
  insert_rates cm h s l 3 = Ok (set_rates s (<[h := rate_map_of l]> (rates s))).
Proof.
  intros Hr Hw. unfold insert_rates. rewrite Hr. unfold assets_wfb in Hw. apply andb_prop in Hw as [Hd Hv].
  apply negb_true_iff in Hd. rewrite forallb_forall in Hv.
  rewrite (has_dup_false_filter _ l Hd).
  match goal with |- context [existsb ?f ?rows] => assert (E : existsb f rows = false) end.
  { apply not_true_is_false. intros K. apply existsb_exists in K as (a & Hin & K). apply filter_In in Hin as [Hin _]. specialize (Hv a Hin). lia. }
  rewrite E. cbn [Z.eqb Pos.eqb andb]. cbv zeta.
  assert (E2 : (two63 <=? fold_left (fun acc (a : Z * Z) => if fst a =? PTickerPEG then snd a else acc) l 0) = false).
  { apply Z.leb_gt. apply (fold_left_invariant (fun acc => acc < two63) (fun a : Z * Z => snd a < two63)); [| |reflexivity].
    - intros acc a Hacc Ha. destruct (_ =? PTickerPEG); assumption.
    - apply Forall_forall. intros a Ha. specialize (Hv a Ha). lia. }
  rewrite E2. reflexivity.
Qed.

Lemma rate_map_of_nonempty l : is_empty_map (rate_map_of l) = false.
Proof.
  unfold is_empty_map, rate_map_of. destruct (map_to_list _) eqn:E; [|reflexivity].
  apply map_to_list_empty_iff in E. exfalso. apply (f_equal (fun m : gmap ticker Z => m !! PTickerPEG)) in E. cbv beta in E.
  rewrite lookup_insert, lookup_empty in E. discriminate.
Qed.
Lemma rate_map_of_nonneg l : assets_wfb l = true -> map_nonneg (rate_map_of l).
Proof.
  intros Hw. unfold assets_wfb in Hw. apply andb_prop in Hw as [_ Hv]. rewrite forallb_forall in Hv.
  assert (Hnn : forall a, In a l -> 0 <= snd a) by (intros a Ha; specialize (Hv a Ha); lia).
  unfold rate_map_of. apply map_nonneg_insert.
  - apply (fold_left_invariant map_nonneg (fun a : Z * Z => 0 <= snd a)); [| |apply map_nonneg_empty].
    + intros m a Hm Ha. destruct (valid_ticker _); [apply map_nonneg_insert; assumption|exact Hm].
    + apply Forall_forall. intros a Ha. apply filter_In in Ha as [Ha _]. exact (Hnn a Ha).
  - apply (fold_left_invariant (fun acc => 0 <= acc) (fun a : Z * Z => 0 <= snd a)); [|apply Forall_forall; exact Hnn|apply Z.le_refl].
    intros acc a Hacc Ha. destruct (_ =? PTickerPEG); assumption.
Qed.

(* SELECT MAX(height) FROM pn_rate WHERE height < h does not see the row of h itself *)
Lemma last_rated_below_insert s s' h m :
  rates s' = <[h := m]> (rates s) -> last_rated_below s' h = last_rated_below s h.
Proof.
  intros E. apply last_rated_below_agree_rated. intros k Hk. rewrite E, lookup_insert_ne by lia. reflexivity.
Qed.

Lemma insert_synced_total s h : versions s !! h = None -> exists s', insert_synced s h = Ok s'.
Proof. intros H. unfold insert_synced. rewrite H. eauto. Qed.

(* the batch rows a transaction block can add are those of its entries *)
Lemma insert_history_hist_keys s e order h txs s' :
  insert_history s e order h txs = Ok s' -> hist_keys s' = hist_keys s ++ [e_hash e].
Proof. intros H. apply insert_history_ok in H as (_ & lks & ->). unfold hist_keys. cbn [hist set_htxs set_hist]. apply map_app. Qed.

Lemma apply_entry_hist_keys h s order e s' :
  apply_entry c h s order e = Ok s' -> incl (hist_keys s') (hist_keys s ++ [e_hash e]).
Proof.
  intros H. apply apply_entry_inv in H as [->|(txs & s1 & Ev & _ & _ & H1 & H2)]; [apply incl_appl, incl_refl|].
  apply insert_history_hist_keys in H1. rewrite <- H1.
  enough (E : hist_keys s' = hist_keys s1) by (rewrite E; apply incl_refl).
  destruct H2 as [[_ H2]|[_ [H2|[->| ->]]]].
  - apply insert_holding_ok in H2 as [_ ->]. reflexivity.
  - apply keys_hist_keys. eapply (lwrites_keys True true), apply_batch_writes; [eapply entry_valid_at_ok; exact Ev|exact H2].
  - apply keys_hist_keys, keys_set_executed.
  - reflexivity.
Qed.

Lemma apply_tx_block_hist_keys h es s s' :
  apply_tx_block c h s es = Ok s' -> incl (hist_keys s') (hist_keys s ++ map e_hash es).
Proof.
  apply (apply_tx_block_invariant c (fun x => incl (hist_keys x) (hist_keys s ++ map e_hash es))); [|apply incl_appl, incl_refl].
  intros s0 i e s1 Hin Hp H x Hx. apply (apply_entry_hist_keys _ _ _ _ _ H), in_app_or in Hx as [Hx|[<-|[]]]; [exact (Hp x Hx)|].
  apply in_or_app. right. apply in_map, Hin.
Qed.
End WithCfg.
