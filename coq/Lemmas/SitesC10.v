(* C10 over Gen/Sites.v: the dropped error results are the expected ones. *)
From Coq Require Import List.
From Gen Require Import Sites.
From Model Require Import SitesSpec.
Import ListNotations.
Open Scope string_scope.
From Lemmas Require Export SitesRoots.

(* by (function, callee, how), not by hash: no dropped error result that is not expected *)
Lemma discarded_errors_expected :
  forallb (fun k => mem3 k expected_discarded_keys) discarded_keys = true.
Proof. vm_compute; reflexivity. Qed.

Lemma discarded_errors_expected_forall :
  forall f c h x, In (f, c, h, x) discarded_errors ->
                  exists n, In (f, c, h, n) expected_discarded.
Proof.
  intros f c h x Hin.
  assert (Hk : In (f, c, h) expected_discarded_keys).
  { apply mem3_In, (proj1 (forallb_forall _ _) discarded_errors_expected).
    unfold discarded_keys. apply in_map_iff. exists (f, c, h, x). split; [reflexivity|exact Hin]. }
  unfold expected_discarded_keys in Hk. apply in_map_iff in Hk as ([[[f0 c0] h0] n] & [= -> -> ->] & Hin').
  exists n. exact Hin'.
Qed.

(* the converse inclusion, separately: a site that went away is noticed, without making the first
   lemma fail *)
Lemma discarded_errors_present :
  forallb (fun k => mem3 k discarded_keys) expected_discarded_keys = true.
Proof. vm_compute; reflexivity. Qed.

(* and no further site of a kind already expected *)
Lemma discarded_errors_counts : check_discarded_counts = true.
Proof. vm_compute; reflexivity. Qed.

