(* Lemmas/IssuanceLedger.v — the scheduled issuance at the level of the LEDGER: what the writers of Model/Block.v do
   to the per-asset supply (SUM over pn_addresses), tied to the regenerated tables.
     developers_payouts : PEG supply + the listed amounts (2000 PEG x 144 from 2.0.2, 2000 PEG before), nothing else
     mint_tokens        : every asset's supply + exactly what the mint list says for it
     snapshot_payouts   : the snapshots rotate (past := current, current := the balances of this moment), only PEG is
                          created, by exactly the sum of the payouts, which is at most 4500 PEG x 144 and equal to it
                          when the stakes reach it *)
From Model Require Import Examples.
From Lemmas Require Import ArithLemmas DbLemmas LedgerLemmas BlockLemmas PayoutLemmas SupplyLemmas RewardLemmas IssuanceLemmas.
From Gen Require Import Consts.
From Coq Require Import Lia.
Open Scope Z_scope.
Open Scope list_scope.

Lemma supply_set_hist s v t : supply (set_hist s v) t = supply s t.  Proof. reflexivity. Qed.
Lemma supply_set_htxs s v l t : supply (set_htxs s v l) t = supply s t.  Proof. reflexivity. Qed.

Lemma dev_indexed_sum (g : Z * Z * Z * Z -> Z) l : forall i j,
  fold_right (fun x acc => g (snd x) + acc) 0 (dev_indexed i j l) = fold_right (fun d acc => g d + acc) 0 l.
Proof. induction l as [|d l IH]; intros i j; cbn [dev_indexed fold_right snd]; [reflexivity|]. rewrite IH. reflexivity. Qed.

Section WithCfg.
Variable c : cfg.

Definition dev_amount (after : bool) (d : Z * Z * Z * Z) : Z := if after then dev_post d else dev_pre d.
Definition dev_sum (after : bool) (l : list (Z * Z * Z * Z)) : Z := fold_right (fun d acc => dev_amount after d + acc) 0 l.

Theorem developers_payouts_supply h ts s s' :
  fst (developers_payouts c h ts s) = Ok s' ->
  forall t, supply s' t = supply s t + (if t =? PTickerPEG then dev_sum (c_V202EnhanceActivation c <=? h) dev_rewards else 0).
Proof.
  rewrite developers_payouts_fst. intros H t.
  apply (fold_res_sum (fun s => supply s t)
           (fun x => if t =? PTickerPEG then dev_amount (c_V202EnhanceActivation c <=? h) (snd x) else 0)) in H.
  - rewrite H, fold_right_if, dev_indexed_sum. reflexivity.
  - intros s0 [[i j] [[[a bits] pre] post]] s1 _ Hs. apply credit_logged_inv in Hs as (s2 & Ha & E).
    unfold supply at 1. rewrite E. fold (supply s2 t). rewrite (supply_add _ _ _ _ _ t Ha), (Z.eqb_sym PTickerPEG t).
    destruct (t =? PTickerPEG), (c_V202EnhanceActivation c <=? h); reflexivity.
Qed.

(* with the regenerated table: exactly 2000 PEG x 144 from 2.0.2 on, 2000 PEG before *)
Corollary developers_payouts_total h ts s s' :
  fst (developers_payouts c h ts s) = Ok s' ->
  supply s' PTickerPEG = supply s PTickerPEG +
    (if c_V202EnhanceActivation c <=? h then PerBlockDevelopers * SnapshotRate else PerBlockDevelopers) /\
  forall t, t <> PTickerPEG -> supply s' t = supply s t.
Proof.
  intros H. pose proof (developers_payouts_supply h ts s s' H) as Hs. split.
  - rewrite (Hs PTickerPEG), Z.eqb_refl. unfold dev_sum, dev_amount.
    destruct (c_V202EnhanceActivation c <=? h); [rewrite <- dev_total_post|rewrite <- dev_total_pre]; reflexivity.
  - intros t Ht. rewrite (Hs t). destruct (Z.eqb_spec t PTickerPEG); [contradiction|lia].
Qed.

Definition listed (t : ticker) (l : list (Z * Z)) : Z := fold_right (fun m acc => (if fst m =? t then snd m else 0) + acc) 0 l.

Theorem mint_tokens_supply s s' : mint_tokens s = Ok s' -> forall t, supply s' t = supply s t + listed t mint_list.
Proof.
  intros H t. revert H. apply (fold_res_sum (fun s => supply s t) (fun m => if fst m =? t then snd m else 0)).
  intros s0 m s1 _ Hs. exact (supply_add _ _ _ _ _ t Hs).
Qed.
Theorem mint_tokens_only_mint_address s s' a t :
  mint_tokens s = Ok s' -> a <> GlobalMintAddress -> get_bal (bal s') a t = get_bal (bal s) a t.
Proof.
  intros H Ha. revert H. apply (fold_res_invariant (fun x => get_bal (bal x) a t = get_bal (bal s) a t)); [|reflexivity].
  intros s0 m s1 E Hs. rewrite (get_bal_add _ _ _ _ _ a t Hs), E.
  destruct (Z.eqb_spec GlobalMintAddress a); [congruence|]. cbn [andb]. lia.
Qed.

Definition staking_cap : Z := PerBlockAssetHolders * SnapshotRate.

(* the requests the payout step is run on: positive stakes, sorted, indexed *)
Definition snapshot_reqs (h : Z) (rates : gmap ticker Z) (s : db) : requests :=
  let past := snap_cur s in let cur := bal s in
  let stakes' := map (fun x => (fst x, default 0 (snd x))) (map (fun a => (a, stake_of c h rates past cur a)) (addrs_of cur)) in
  let lst := sort_stakes (filter (fun x => 0 <? snd x) stakes') in
  map (fun x : Z * (addr * Z) => ((mock_hash h, fst x), snd (snd x))) (index_from 0 lst).

Lemma snapshot_reqs_eq h rates s : snapshot_reqs h rates s = staking_reqs c h rates s.
Proof. reflexivity. Qed.

Theorem snapshot_payouts_ledger h ts rates s s' :
  snapshot_payouts c h ts rates s = Ok s' ->
  let rs := snapshot_reqs h rates s in
  snap_cur s' = bal s /\ snap_past s' = snap_cur s /\
  (forall t, supply s' t = supply s t + (if t =? PTickerPEG then sum_snd (payouts staking_cap rs) else 0)) /\
  sum_snd (payouts staking_cap rs) <= staking_cap /\
  (staking_cap <= total_requested_big rs -> rs <> [] -> sum_snd (payouts staking_cap rs) = staking_cap) /\
  (total_requested_big rs < staking_cap -> payouts staking_cap rs = rs).
Proof.
  intros H rs. apply snapshot_payouts_ok in H as [Hfit H]. rewrite <- snapshot_reqs_eq in H. fold rs staking_cap in H.
  assert (Hok : reqs_ok rs) by (eapply Forall_impl, staking_reqs_range, Hfit; cbv beta; lia).
  assert (Hcap : 0 <= staking_cap < two64) by (vm_compute; split; [discriminate|reflexivity]).
  enough (snap_cur s' = bal s /\ snap_past s' = snap_cur s /\
          forall t, supply s' t = supply s t + (if t =? PTickerPEG then sum_snd (payouts staking_cap rs) else 0))
    by (pose proof (payouts_never_exceed_bank staking_cap rs Hok (staking_txids_distinct _ _) Hcap); tauto).
  destruct H as [[E ->]|(_ & s2 & s3 & H1 & H2 & H3)].
  - repeat split. intros t. rewrite E. destruct (t =? PTickerPEG); symmetry; apply Z.add_0_r.
  - apply insert_hbatch_ok in H1 as [_ ->].
    (* the coinbase rows leave snapshots and balances alone, the credits the snapshots *)
    assert (E3 : snap_cur s3 = bal s /\ snap_past s3 = snap_cur s /\ bal s3 = bal s).
    { revert H2. apply (fold_res_invariant (fun x => snap_cur x = bal s /\ snap_past x = snap_cur s /\ bal x = bal s)); [|auto]. intros sa p sb A Hs. destruct (two63 <=? snd p); [discriminate|].
      apply insert_htx_ok in Hs as [_ ->]. exact A. }
    assert (E4 : snap_cur s' = snap_cur s3 /\ snap_past s' = snap_past s3).
    { revert H3. apply (fold_res_invariant (fun x => snap_cur x = snap_cur s3 /\ snap_past x = snap_past s3)); [|auto].
      intros sa p sb A Hs. apply add_to_balance_ok in Hs as (_ & _ & ->). exact A. }
    destruct E3 as (E3a & E3b & E3c), E4 as (E4a & E4b). split; [congruence|]. split; [congruence|]. intros t.
    apply (fold_res_sum (fun s => supply s t) (fun p => if t =? PTickerPEG then snd p else 0)) in H3.
    + rewrite H3, fold_right_if. unfold supply at 1. rewrite E3c. reflexivity.
    + intros sa p sb _ Hs. rewrite (supply_add _ _ _ _ _ t Hs), (Z.eqb_sym PTickerPEG t). reflexivity.
Qed.

End WithCfg.

(* non-vacuity on the example configuration *)
Example developers_payouts_total_example :
  match fst (developers_payouts ex_cfg 576 1576 genesis) with
  | Ok s' => supply s' PTickerPEG = (if c_V202EnhanceActivation ex_cfg <=? 576 then PerBlockDevelopers * SnapshotRate else PerBlockDevelopers) /\ 0 < supply s' PTickerPEG
  | _ => False
  end.
Proof. vm_compute. split; reflexivity. Qed.
Example mint_tokens_supply_example :
  match mint_tokens genesis with Ok s' => supply s' PTickerUSD = listed PTickerUSD mint_list /\ 0 < listed PTickerUSD mint_list | _ => False end.
Proof. vm_compute. split; reflexivity. Qed.
(* a holder with 300 pUSD at the previous snapshot and 500 now is paid for 300 (1:1 below the cap); the snapshots rotate *)
Example snapshot_payouts_ledger_example :
  let s := set_snaps (set_bal empty_db {[ (alice, PTickerUSD) := 500 ]}) {[ (alice, PTickerUSD) := 300 ]} ∅ in
  match snapshot_payouts ex_cfg 288 1000 {[ PTickerUSD := 100000000 ]} s with
  | Ok s' => supply s' PTickerPEG = 300 /\ snap_cur s' = bal s /\ snap_past s' = snap_cur s
  | _ => False
  end.
Proof.
  intros s. set (r := snapshot_payouts _ _ _ _ s).
  assert (W : exists s', r = Ok s' /\ supply s' PTickerPEG = 300) by (apply ok_witness; vm_compute; reflexivity).
  destruct W as (s' & E & W). rewrite E. split; [exact W|]. split; eapply snapshot_payouts_ledger; exact E.
Qed.
