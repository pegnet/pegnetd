(* Lemmas/TotalityLemmas.v — C08 (sync liveness), totality half: the transaction machinery of the
   ledger model cannot return [Fail]/[Panic] whatever the entries of the transaction chain are,
   under an explicit invariant that is itself preserved.

     hist_closed s      every hash of pn_history_transaction and of the holding table also has a
                        pn_history_txbatch row            (uniqueness constraints cannot fire)
     bal_room s n       every balance cell is in [0, max_int64 - n]     (no REAL cell, no SQL
                        argument with the high bit set)
     batch_wf           what the decoder + signature check guarantee about a decoded batch and
                        [entry_valid_at] does not re-state: input tickers are tickers, and the
                        signer is not the burn address

   The heart is [record_txs_total]: when the uint64 simulation of a batch accepts it, recordBatch runs
   to its end, because simulation and database agree on the rows of the input addresses and nothing
   wraps under [bal_room].  From there: one batch, one arriving entry, a whole transaction block. *)
From Model Require Import Ledger.
From Lemmas Require Import ArithLemmas DbLemmas LedgerLemmas.
From Gen Require Import Consts.
From Coq Require Import Lia ZifyBool.
Open Scope Z_scope.
Open Scope list_scope.

Definition hist_keys (s : db) : list Z := map hb_hash (hist s).
Definition htx_keys (s : db) : list Z := map ht_hash (htxs s).
Definition hold_keys (s : db) : list Z := map (fun x => e_hash (h_entry x)) (holding s).
Definition keys (s : db) : list Z * list Z * list Z := (hist_keys s, htx_keys s, hold_keys s).

(* the invariant: transaction rows and held batches only for recorded hashes *)
Definition hist_closed (s : db) : Prop :=
  incl (htx_keys s) (hist_keys s) /\ incl (hold_keys s) (hist_keys s).
Definition hist_closedb (s : db) : bool :=
  forallb (fun r => hist_has s (ht_hash r)) (htxs s) &&
  forallb (fun x => hist_has s (e_hash (h_entry x))) (holding s).

Lemma hist_has_in s x : hist_has s x = true <-> In x (hist_keys s).
Proof.
  unfold hist_has, hist_keys. rewrite existsb_exists, in_map_iff. split.
  - intros (r & Hin & He). exists r. split; [lia|exact Hin].
  - intros (r & He & Hin). exists r. split; [exact Hin|lia].
Qed.
Lemma hist_has_false s x : hist_has s x = false <-> ~ In x (hist_keys s).
Proof. rewrite <- hist_has_in. symmetry. apply not_true_iff_false. Qed.

Lemma hist_closedb_spec s : hist_closedb s = true <-> hist_closed s.
Proof.
  unfold hist_closedb, hist_closed, incl, htx_keys, hold_keys. rewrite andb_true_iff, !forallb_forall. split.
  - intros [H1 H2]. split; intros x Hx; apply in_map_iff in Hx as (r & <- & Hr); apply hist_has_in; auto.
  - intros [H1 H2]. split; intros r Hr; apply hist_has_in; [apply H1|apply H2]; apply in_map_iff; exists r; auto.
Qed.

Lemma hist_closed_keys s s' : keys s' = keys s -> hist_closed s -> hist_closed s'.
Proof. unfold keys, hist_closed. intros E. inversion E as [[E1 E2 E3]]. rewrite E1, E2, E3. auto. Qed.

Lemma hist_has_at_has s x h : hist_has_at s x h = true -> hist_has s x = true.
Proof.
  unfold hist_has_at, hist_has. rewrite !existsb_exists. intros (r & Hin & He). exists r. split; [exact Hin|lia].
Qed.
Lemma htx_has_in s x i : htx_has s x i = true -> In x (htx_keys s).
Proof.
  unfold htx_has, htx_keys. rewrite existsb_exists, in_map_iff. intros (r & Hin & He). exists r. split; [lia|exact Hin].
Qed.
Lemma holding_has_in s x : holding_has s x = true -> In x (hold_keys s).
Proof.
  unfold holding_has, hold_keys. rewrite existsb_exists, in_map_iff. intros (r & Hin & He). exists r. split; [lia|exact Hin].
Qed.

Lemma keys_set_bal s v : keys (set_bal s v) = keys s.  Proof. reflexivity. Qed.
Lemma keys_insert_relation s a hs i t cv : keys (insert_relation s a hs i t cv) = keys s.
Proof. unfold insert_relation. destruct (existsb _ _); reflexivity. Qed.
Lemma keys_set_executed s hs code : keys (set_executed s hs code) = keys s.
Proof.
  unfold keys, set_executed, hist_keys, htx_keys, hold_keys. cbn [hist htxs holding set_hist].
  f_equal. f_equal. rewrite map_map. apply map_ext. intros r. destruct (hb_hash r =? hs); reflexivity.
Qed.
Lemma keys_upd_htx s hs i f : (forall r, ht_hash (f r) = ht_hash r) -> keys (upd_htx s hs i f) = keys s.
Proof.
  intros Hf. unfold keys, upd_htx, hist_keys, htx_keys, hold_keys. cbn [hist htxs holding set_htxs].
  f_equal. f_equal. rewrite map_map. apply map_ext. intros r. destruct (_ && _); [apply Hf|reflexivity].
Qed.
Lemma keys_set_to_amount s hs i amt : keys (set_to_amount s hs i amt) = keys s.
Proof. apply keys_upd_htx. intros r. reflexivity. Qed.

(* each half of the invariant is kept by the three inserts: a batch row only adds a recorded hash;
   a transaction row or a held batch is inserted only for a hash that has its batch row *)
Lemma incl_more_hist (ks : list Z) s r : incl ks (hist_keys s) -> incl ks (hist_keys (set_hist s (hist s ++ [r]))).
Proof. intros C. unfold hist_keys. cbn [hist set_hist]. rewrite map_app. apply incl_appl. exact C. Qed.
Lemma incl_snoc_recorded (ks : list Z) s x : incl ks (hist_keys s) -> hist_has s x = true -> incl (ks ++ [x]) (hist_keys s).
Proof. intros C Hh. apply hist_has_in in Hh. apply incl_app; [exact C|]. intros y [<-|[]]. exact Hh. Qed.

(* a ledger write either leaves the three key lists alone, or is one of the three inserts; without
   the rows flag it is never an insert: everything that executes batches (apply_batch,
   apply_holding, the mint and its burn) keeps the keys *)
Lemma lstep_keys_or_closed K rw ex s s' :
  lstep K rw ex s s' ->
  keys s' = keys s \/
  rw = true /\ (incl (htx_keys s) (hist_keys s) -> incl (htx_keys s') (hist_keys s')) /\
               (incl (hold_keys s) (hist_keys s) -> incl (hold_keys s') (hist_keys s')).
Proof.
  intros H. destruct H as [| | | | | | | | |ex s r s' Hi|ex s r lk s' Hh Hi|ex s e h s' Hh Hi]; [left..|right|right|right].
  1-6: untouched_db.
  - apply keys_set_executed.
  - apply keys_set_to_amount.
  - apply keys_upd_htx. intros r. reflexivity.
  - apply insert_hbatch_ok in Hi as [_ ->]. split; [reflexivity|]. split; apply incl_more_hist.
  - apply insert_htx_ok in Hi as [_ ->]. split; [reflexivity|]. split; [|exact (fun C => C)].
    intros C. unfold htx_keys. cbn [htxs set_htxs]. rewrite map_app. exact (incl_snoc_recorded _ s _ C Hh).
  - apply insert_holding_ok in Hi as [_ ->]. split; [reflexivity|]. split; [exact (fun C => C)|].
    intros C. unfold hold_keys. cbn [holding set_holding]. rewrite map_app. exact (incl_snoc_recorded _ s _ C Hh).
Qed.

Lemma lwrites_keys K ex s s' : lwrites K false ex s s' -> keys s' = keys s.
Proof.
  intros H. symmetry. revert s s' H. apply (lwrites_pres keys eq). intros s s' H. symmetry.
  destruct (lstep_keys_or_closed K false ex s s' H) as [E|[E _]]; [exact E|discriminate E].
Qed.
(* the first half alone: every transaction row has a batch row *)
Lemma lwrites_rows_closed K rw ex s s' :
  lwrites K rw ex s s' -> incl (htx_keys s) (hist_keys s) -> incl (htx_keys s') (hist_keys s').
Proof.
  apply (lwrites_invariant (fun x => incl (htx_keys x) (hist_keys x))). intros s0 s1 H C.
  destruct (lstep_keys_or_closed K rw ex s0 s1 H) as [E|(_ & C1 & _)]; [|exact (C1 C)].
  inversion E as [[E1 E2 E3]]. rewrite E1, E2. exact C.
Qed.
Lemma lwrites_closed K rw ex s s' : lwrites K rw ex s s' -> hist_closed s -> hist_closed s'.
Proof.
  apply lwrites_invariant. intros s0 s1 H Hc.
  destruct (lstep_keys_or_closed K rw ex s0 s1 H) as [E|(_ & C1 & C2)]; [eapply hist_closed_keys; eassumption|].
  split; [apply C1|apply C2]; apply Hc.
Qed.

Lemma htx_has_fresh s x i : ~ In x (htx_keys s) -> htx_has s x i = false.
Proof. intros Hf. destruct (htx_has s x i) eqn:E; [|reflexivity]. exfalso. apply Hf. eapply htx_has_in; exact E. Qed.
Lemma hist_has_at_fresh s x h : ~ In x (hist_keys s) -> hist_has_at s x h = false.
Proof. intros Hf. destruct (hist_has_at s x h) eqn:E; [|reflexivity]. exfalso. apply Hf, hist_has_in. eapply hist_has_at_has; exact E. Qed.

(* a fold that inserts one transaction row per element: rows with distinct (hash, index) keys, none of
   them in the table, go in without a primary-key conflict *)
Lemma insert_rows_fresh {X} (f : db -> X -> res db) (row : X -> htx) (lk : X -> list addr) (l : list X) :
  (forall s x, In x l -> f s x = insert_htx s (row x) (lk x)) ->
  NoDup (map (fun x => (ht_hash (row x), ht_index (row x))) l) ->
  forall s, (forall x, In x l -> htx_has s (ht_hash (row x)) (ht_index (row x)) = false) ->
  exists s', fold_left (fun r x => let? s0 := r in f s0 x) l (Ok s) = Ok s' /\
             htxs s' = htxs s ++ map row l /\ hist s' = hist s /\ holding s' = holding s /\ bal s' = bal s /\ rel s' = rel s.
Proof.
  induction l as [|x l IH]; intros Hf Hnd s Hno; cbn [fold_left map] in *.
  - exists s. rewrite app_nil_r. auto 6.
  - apply NoDup_cons_iff in Hnd as [Hn1 Hnd']. cbn [rbind]. rewrite (Hf s x (or_introl eq_refl)). unfold insert_htx.
    rewrite (Hno x (or_introl eq_refl)). set (s1 := set_htxs s (htxs s ++ [row x]) _).
    destruct (IH (fun s0 y Hy => Hf s0 y (or_intror Hy)) Hnd' s1) as (s' & F & H1 & H2 & H3 & H4 & H5).
    { intros y Hy. unfold htx_has, s1. cbn [htxs set_htxs]. rewrite existsb_app. fold (htx_has s (ht_hash (row y)) (ht_index (row y))).
      rewrite (Hno y (or_intror Hy)). cbn [existsb orb]. rewrite orb_false_r. apply not_true_is_false. intros K.
      apply Hn1, in_map_iff. exists y. split; [f_equal; lia|exact Hy]. }
    exists s'. split; [exact F|]. rewrite H1. unfold s1. cbn [htxs set_htxs]. rewrite <- app_assoc. auto 6.
Qed.

Definition entry_hbatch (e : entry) (order h : Z) : hbatch :=
  {| hb_hash := e_hash e; hb_height := h; hb_order := order; hb_ts := e_ts e; hb_exec := 0 |}.

Theorem insert_history_total s e order h txs :
  hist_closed s -> hist_has s (e_hash e) = false -> exists s', insert_history s e order h txs = Ok s'.
Proof.
  intros [Hc1 Hc2] Hno. apply hist_has_false in Hno. unfold insert_history, insert_hbatch. cbn [hb_hash hb_height].
  rewrite (hist_has_at_fresh s _ h Hno). cbn [rbind]. set (s1 := set_hist s _).
  destruct (insert_rows_fresh (fun s0 x => insert_htx s0 (fst x) (snd x)) fst snd (history_rows_of (e_hash e) txs)) with (s := s1)
    as (s' & HF & _); [reflexivity| | |eauto].
  { rewrite history_rows_of_keys. apply FinFun.Injective_map_NoDup; [intros i j E; inversion E; reflexivity|apply zrange_NoDup]. }
  { (* closed: the hash has no batch row, so no transaction row either *)
    intros x Hx. rewrite (history_rows_of_hash _ _ _ Hx). apply htx_has_fresh. intros K. apply Hno, Hc1, K. }
Qed.

Theorem insert_holding_total s e h :
  ~ In (e_hash e) (hold_keys s) ->
  exists s', insert_holding s e h = Ok s' /\ hist s' = hist s /\ htxs s' = htxs s /\ bal s' = bal s /\
             hold_keys s' = hold_keys s ++ [e_hash e].
Proof.
  intros Hno. unfold insert_holding.
  destruct (holding_has s (e_hash e)) eqn:E; [exfalso; apply Hno; apply holding_has_in; exact E|].
  eexists. split; [reflexivity|]. repeat split.
  unfold hold_keys. cbn [holding set_holding]. rewrite map_app. reflexivity.
Qed.

(* from a closed state a hash that is not recorded is not held either *)
Corollary insert_holding_total_closed s e h :
  hist_closed s -> hist_has s (e_hash e) = false -> exists s', insert_holding s e h = Ok s'.
Proof.
  intros [_ Hc] Hno. destruct (insert_holding_total s e h) as (s' & H & _); [|eauto].
  intros K. apply hist_has_false in Hno. apply Hno, Hc, K.
Qed.

Definition bal_room (s : db) (n : Z) : Prop :=
  forall a t, 0 <= get_bal (bal s) a t /\ get_bal (bal s) a t + n <= max_int64.
Definition bal_roomb (s : db) (n : Z) : bool :=
  (n <=? max_int64) && forallb (fun kv => (0 <=? snd kv) && (snd kv + n <=? max_int64)) (map_to_list (bal s)).

Ltac zl := unfold max_int64, two63, two64 in *; lia.

Lemma bal_roomb_spec s n : bal_roomb s n = true -> bal_room s n.
Proof.
  unfold bal_roomb, bal_room. intros H a t. apply andb_prop in H as [Hn H]. rewrite forallb_forall in H.
  unfold get_bal. destruct (bal s !! (a, t)) as [v|] eqn:E; cbn [from_option id].
  - apply elem_of_map_to_list in E. apply elem_of_list_In in E. specialize (H _ E). cbn [snd] in H. zl.
  - zl.
Qed.
Lemma bal_room_weaken s n m : m <= n -> bal_room s n -> bal_room s m.
Proof. intros Hm H a t. specialize (H a t). zl. Qed.
Lemma bal_room_eq s s' n : bal s' = bal s -> bal_room s n -> bal_room s' n.
Proof. unfold bal_room. intros ->. auto. Qed.
Lemma bal_room_nonneg s n : bal_room s n -> nonneg s.
Proof. intros H a t. apply H. Qed.

(* a credit uses up that much of the room *)
Lemma bal_room_credit s s' a t v n :
  0 <= v -> 0 <= n -> bal_room s (v + n) -> bal s' = <[(a, t) := get_bal (bal s) a t + v]> (bal s) -> bal_room s' n.
Proof.
  intros Hv Hn Hr E a' t'. pose proof (Hr a t). specialize (Hr a' t'). rewrite E, get_bal_insert. destruct (decide _); zl.
Qed.

Lemma add_to_balance_total s a t v n :
  valid_ticker t = true -> 0 <= v -> 0 <= n -> bal_room s (v + n) ->
  exists s', add_to_balance s a t v = Ok s' /\ keys s' = keys s /\ bal_room s' n /\
             bal s' = <[(a, t) := get_bal (bal s) a t + v]> (bal s).
Proof.
  intros Ht Hv Hn Hr. pose proof (Hr a t) as Hat.
  exists (set_bal s (<[(a, t) := get_bal (bal s) a t + v]> (bal s))). split.
  - apply add_to_balance_iff. split; [exact Ht|]. split; [zl|]. split; [zl|reflexivity].
  - split; [reflexivity|]. split; [|reflexivity]. eapply bal_room_credit; [exact Hv|exact Hn|exact Hr|reflexivity].
Qed.

Lemma sub_from_balance_total s a t v n :
  valid_ticker t = true -> 0 <= v <= get_bal (bal s) a t -> 0 <= n -> bal_room s n ->
  exists s', sub_from_balance s a t v = SubOk s' /\ keys s' = keys s /\ bal_room s' n /\
             bal s' = <[(a, t) := get_bal (bal s) a t - v]> (bal s).
Proof.
  intros Ht Hv Hn Hr. pose proof (Hr a t) as Hat.
  exists (set_bal s (<[(a, t) := get_bal (bal s) a t - v]> (bal s))). split.
  - apply sub_from_balance_iff. split; [exact Ht|]. split; [zl|]. split; [zl|]. split; [zl|reflexivity].
  - split; [reflexivity|]. split; [|reflexivity].
    intros a' t'. cbn [bal set_bal]. rewrite get_bal_insert. destruct (decide _); [zl|].
    specialize (Hr a' t'). zl.
Qed.

Definition transfers_sum (trs : list transfer) : Z := fold_right (fun tr acc => tr_amt tr + acc) 0 trs.
Definition transfers_total (txs : list tx) : Z := fold_right (fun t acc => transfers_sum (tx_transfers t) + acc) 0 txs.

Lemma transfers_sum_nonneg trs : Forall (fun tr => 0 <= tr_amt tr) trs -> 0 <= transfers_sum trs.
Proof. intros H. rewrite Forall_forall in H. exact (fold_sum_nonneg tr_amt trs H). Qed.

Lemma is_peg_request_conversion t : is_peg_request t = true -> is_conversion t = true.
Proof.
  unfold is_peg_request, is_conversion. destruct (tx_transfers t); [|discriminate].
  intros H. apply Z.eqb_eq in H. rewrite H. reflexivity.
Qed.

Section WithCfg.
Variable c : cfg.

Definition tx_credit (h : Z) (rates avgs : gmap ticker Z) (t : tx) : Z :=
  if is_conversion t then default 0 (conv_of c h rates avgs t) else transfers_sum (tx_transfers t).
Definition txs_credit (h : Z) (rates avgs : gmap ticker Z) (txs : list tx) : Z :=
  fold_right (fun t acc => tx_credit h rates avgs t + acc) 0 txs.

(* [m] is the uint64 simulation's copy of the balances, [s] the database: they agree on the rows of
   the input addresses *)
Definition agree (present : list addr) (m : gmap (addr * ticker) Z) (s : db) : Prop :=
  forall a t, In a present -> get_bal m a t = get_bal (bal s) a t.

Definition sim_credit (present : list addr) (ty : ticker) (m' : gmap (addr * ticker) Z) (tr : transfer) :=
  if existsb (Z.eqb (tr_addr tr)) present
  then <[(tr_addr tr, ty) := wrap64 (sim_get m' (tr_addr tr) ty + tr_amt tr)]> m'
  else m'.

(* the simulation's copy follows a write to a cell: of an input address as long as nothing wraps,
   of any other address because it does not look at it *)
Lemma agree_set present m s s' a t d n :
  agree present m s -> In a present -> bal s' = <[(a, t) := get_bal (bal s) a t + d]> (bal s) ->
  0 <= n -> bal_room s' n -> agree present (<[(a, t) := wrap64 (sim_get m a t + d)]> m) s'.
Proof.
  intros Ha Hin E Hn Hr a' t' Hin'. specialize (Hr a' t'). rewrite E in Hr |- *. rewrite get_bal_insert in Hr. rewrite !get_bal_insert.
  destruct (decide ((a, t) = (a', t'))); [|apply Ha; exact Hin'].
  change (sim_get m a t) with (get_bal m a t). rewrite (Ha a t Hin). apply wrap64_small. zl.
Qed.
Lemma agree_other present m s s' a t v :
  agree present m s -> ~ In a present -> bal s' = <[(a, t) := v]> (bal s) -> agree present m s'.
Proof.
  intros Ha Hnin E a' t' Hin'. rewrite E, get_bal_insert. destruct (decide ((a, t) = (a', t'))) as [D|D]; [|apply Ha; exact Hin'].
  inversion D; subst. contradiction.
Qed.

Lemma credit_transfers_total h hs idx ty present :
  valid_ticker ty = true -> ~ In (burn_addr c h) present ->
  forall trs s m n,
  Forall (fun tr => 0 <= tr_amt tr) trs -> 0 <= n -> bal_room s (transfers_sum trs + n) -> agree present m s ->
  exists s', credit_transfers c h hs idx ty trs s = Ok s' /\ keys s' = keys s /\ bal_room s' n /\
             agree present (fold_left (sim_credit present ty) trs m) s'.
Proof.
  intros Hty Hburn. unfold credit_transfers.
  induction trs as [|tr trs IH]; intros s m n Hf Hn Hr Ha; cbn [fold_left].
  - exists s. split; [reflexivity|]. split; [reflexivity|]. split; [|exact Ha].
    intros a t. cbn [transfers_sum fold_right] in Hr. specialize (Hr a t). lia.
  - inversion Hf as [|? ? Hamt Hf']; subst. cbn [rbind].
    pose proof (transfers_sum_nonneg trs Hf') as Hrest.
    cbn [transfers_sum fold_right] in Hr. fold (transfers_sum trs) in Hr.
    destruct (Z.eqb_spec (tr_addr tr) (burn_addr c h)) as [Eb|Nb].
    + (* to the burn address: nothing is credited; the address is no input, the simulation skips it too *)
      assert (Hs : sim_credit present ty m tr = m).
      { unfold sim_credit. destruct (existsb (Z.eqb (tr_addr tr)) present) eqn:E; [|reflexivity].
        apply existsb_eqb_In in E. rewrite Eb in E. contradiction. }
      rewrite Hs. apply IH; auto. eapply bal_room_weaken; [|exact Hr]. lia.
    + destruct (add_to_balance_total s (tr_addr tr) ty (tr_amt tr) (transfers_sum trs + n) Hty Hamt)
        as (s1 & H1 & H2 & H3 & H4); [lia|eapply bal_room_weaken; [|exact Hr]; lia|].
      rewrite H1. cbn [rbind].
      set (s2 := insert_relation s1 (tr_addr tr) hs idx true false).
      assert (B2 : bal s2 = bal s1) by apply bal_insert_relation.
      rewrite <- B2 in H4. apply (bal_room_eq _ _ _ B2) in H3.
      destruct (IH s2 (sim_credit present ty m tr) n Hf' Hn H3) as (s' & G1 & G2 & G3 & G4).
      * unfold sim_credit. destruct (existsb (Z.eqb (tr_addr tr)) present) eqn:E.
        -- apply existsb_eqb_In in E. eapply agree_set; [exact Ha|exact E|exact H4| |exact H3]. lia.
        -- refine (agree_other _ _ _ _ _ _ _ Ha _ H4). intros K. apply existsb_eqb_In in K. congruence.
      * exists s'. split; [exact G1|]. split; [|split; [exact G3|exact G4]].
        rewrite G2. unfold s2. rewrite keys_insert_relation. exact H2.
Qed.

(* what recordBatch needs of a transaction the simulation accepted.  The third conjunct: from the
   conversion limit on the simulation credits a PEG request while recordBatch defers it to the bank,
   so the two no longer agree on the input rows (the finding about mixed bank-era batches).  For
   the same reason the burn address must not be among the signers ([record_txs_total]): transfers
   to it are counted by the simulation and skipped by recordBatch. *)
Definition tx_pre (h : Z) (t : tx) : Prop :=
  valid_ticker (tx_type t) = true /\ tx_amounts_ok t /\
  ((c_PegnetConversionLimitActivation c <=? h) && is_peg_request t) = false.

Lemma tx_credit_nonneg h rates avgs t :
  (forall t out, conv_of c h rates avgs t = Some out -> 0 <= out) -> tx_amounts_ok t -> 0 <= tx_credit h rates avgs t.
Proof.
  intros Hc [_ Hf]. unfold tx_credit. destruct (is_conversion t).
  - destruct (conv_of c h rates avgs t) as [out|] eqn:E; cbn [from_option id]; [eapply Hc; exact E|zl].
  - apply transfers_sum_nonneg; exact Hf.
Qed.
Lemma txs_credit_nonneg h rates avgs txs :
  (forall t out, conv_of c h rates avgs t = Some out -> 0 <= out) -> txs_ok txs -> 0 <= txs_credit h rates avgs txs.
Proof.
  intros Hc Hok. unfold txs_ok in Hok. rewrite Forall_forall in Hok.
  apply (fold_sum_nonneg (tx_credit h rates avgs)). intros t Ht. exact (tx_credit_nonneg h rates avgs t Hc (Hok t Ht)).
Qed.

Lemma record_txs_total h hs rates avgs present :
  ~ In (burn_addr c h) present ->
  (forall t out, conv_of c h rates avgs t = Some out -> 0 <= out) ->
  forall txs idx m s n,
  Forall (tx_pre h) txs -> Forall (fun t => In (tx_addr t) present) txs -> 0 <= n ->
  bal_room s (txs_credit h rates avgs txs + n) -> agree present m s ->
  sim_txs c h present rates avgs m txs = None ->
  exists s', record_txs c h hs rates avgs idx txs s = Ok s' /\ keys s' = keys s /\ bal_room s' n.
Proof.
  intros Hburn Hconv.
  induction txs as [|t txs IH]; intros idx m s n Hpre Hin Hn Hr Ha Hsim; cbn [record_txs].
  - exists s. split; [reflexivity|]. split; [reflexivity|].
    intros a ty. cbn [txs_credit fold_right] in Hr. specialize (Hr a ty). lia.
  - inversion Hpre as [|? ? (Hty & Hok & Hpeg) Hpre']; subst. inversion Hin as [|? ? Hint Hin']; subst.
    assert (Hoks : txs_ok txs) by (eapply Forall_impl; [|exact Hpre']; intros ? (_ & K & _); exact K).
    pose proof (txs_credit_nonneg h rates avgs txs Hconv Hoks) as Hrest.
    pose proof (tx_credit_nonneg h rates avgs t Hconv Hok) as Hcur.
    cbn [txs_credit fold_right] in Hr. fold (txs_credit h rates avgs txs) in Hr.
    cbn [sim_txs] in Hsim.
    destruct (Z.ltb_spec (sim_get m (tx_addr t) (tx_type t)) (tx_amt t)) as [K|Hcov]; [discriminate|].
    change (sim_get m (tx_addr t) (tx_type t)) with (get_bal m (tx_addr t) (tx_type t)) in Hcov. rewrite (Ha _ (tx_type t) Hint) in Hcov.
    destruct Hok as [Hamt Htrs].
    destruct (sub_from_balance_total s (tx_addr t) (tx_type t) (tx_amt t)
                (tx_credit h rates avgs t + txs_credit h rates avgs txs + n) Hty) as (s1 & S1 & S2 & S3 & S4);
      [lia|lia|exact Hr|].
    rewrite S1. rewrite Hpeg.
    set (s3 := set_executed (insert_relation s1 (tx_addr t) hs idx false (is_conversion t)) hs h).
    assert (K3 : keys s3 = keys s) by (unfold s3; rewrite keys_set_executed, keys_insert_relation; exact S2).
    assert (B3 : bal s3 = bal s1) by (unfold s3; rewrite bal_set_executed, bal_insert_relation; reflexivity).
    rewrite <- B3 in S4. apply (bal_room_eq _ _ _ B3) in S3.
    set (m1 := <[(tx_addr t, tx_type t) := _]> m) in Hsim.
    assert (A1 : agree present m1 s3) by (eapply (agree_set present m s s3 _ _ (- tx_amt t)); [exact Ha|exact Hint|exact S4| |exact S3]; lia).
    unfold tx_credit in Hr, Hcur, S3. destruct (is_conversion t) eqn:Ec.
    + (* a conversion *)
      destruct (conv_of c h rates avgs t) as [out|] eqn:Eo; [|discriminate]. cbn [from_option id] in Hr, Hcur, S3.
      pose proof (is_conversion_valid_conv t Ec) as Hcv.
      assert (Hw : wrap64 out = out).
      { apply wrap64_small. pose proof (Hr (tx_addr t) (tx_type t)). zl. }
      rewrite Hw in *.
      destruct (add_to_balance_total (set_to_amount s3 hs idx out) (tx_addr t) (tx_conv t) out
                  (txs_credit h rates avgs txs + n) Hcv Hcur) as (s5 & T1 & T2 & T3 & T4); [lia| |].
      { eapply bal_room_eq; [apply bal_set_to_amount|]. eapply bal_room_weaken; [|exact S3]. lia. }
      rewrite T1. cbn [rbind].
      eapply IH in Hsim as (s' & R1 & R2 & R3); [| exact Hpre' | exact Hin' | exact Hn | exact T3 |].
      * exists s'. split; [exact R1|]. split; [|exact R3]. rewrite R2, T2, keys_set_to_amount. exact K3.
      * eapply agree_set; [exact A1|exact Hint|exact T4| |exact T3]. lia.
    + (* transfers *)
      destruct (credit_transfers_total h hs idx (tx_type t) present Hty Hburn (tx_transfers t) s3 m1
                  (txs_credit h rates avgs txs + n) Htrs) as (s4 & C1 & C2 & C3 & C4); [lia| |exact A1|].
      { eapply bal_room_weaken; [|exact S3]. lia. }
      rewrite C1. cbn [rbind].
      eapply IH in Hsim as (s' & R1 & R2 & R3); [| exact Hpre' | exact Hin' | exact Hn | exact C3 | exact C4].
      exists s'. split; [exact R1|]. split; [|exact R3]. rewrite R2, C2. exact K3.
Qed.
End WithCfg.

Section Loops.
Variable c : cfg.

Lemma has_conversions_cons t txs : has_conversions (t :: txs) = false -> is_conversion t = false /\ has_conversions txs = false.
Proof. unfold has_conversions. cbn [existsb]. intros H. apply orb_false_elim in H. exact H. Qed.

(* once the first loop has let the batch through (check_txs_result) the second can only answer
   "insufficient balance" *)
Lemma sim_txs_cases h present rates avgs txs :
  Forall (fun t => is_conversion t = true -> conv_of c h rates avgs t <> None) txs ->
  forall m, sim_txs c h present rates avgs m txs = None \/ sim_txs c h present rates avgs m txs = Some (BRejected (-1)).
Proof.
  induction 1 as [|t txs Ht _ IH]; intros m; cbn [sim_txs]; [left; reflexivity|].
  destruct (_ <? tx_amt t); [right; reflexivity|].
  destruct (is_conversion t).
  - destruct (conv_of c h rates avgs t); [apply IH|exfalso; apply Ht; reflexivity].
  - apply IH.
Qed.

(* applyTransactionBatch never fails the block *)
Lemma apply_batch_total h s hs txs rates avgs n :
  Forall (tx_pre c h) txs -> ~ In (burn_addr c h) (map tx_addr txs) ->
  (forall t out, conv_of c h rates avgs t = Some out -> 0 <= out) ->
  is_empty_map rates = false \/ has_conversions txs = false ->
  0 <= n -> bal_room s (txs_credit c h rates avgs txs + n) ->
  match apply_batch c h s hs txs rates avgs with
  | BApplied s' => keys s' = keys s /\ bal_room s' n
  | BRejected code => has_conversions txs = false -> code = -1
  | BDropped => has_conversions txs = true
  | BFail _ => False
  end.
Proof.
  intros Hpre Hburn Hconv Hor Hn Hr. unfold apply_batch.
  pose proof (check_txs_result c h s rates avgs txs) as Hcv.
  destruct (check_txs c h s rates avgs txs) as [r|].
  { destruct r as [s'|code| |code]; [destruct Hcv|exact Hcv|exact Hcv|]. destruct Hcv as [K1 K2]. destruct Hor; congruence. }
  destruct (sim_txs_cases h (map tx_addr txs) rates avgs txs Hcv (bal s)) as [E2|E2]; rewrite E2; [|intros _; reflexivity].
  unfold record_batch.
  destruct (record_txs_total c h hs rates avgs (map tx_addr txs) Hburn Hconv txs 0 (bal s) s n Hpre) as (s' & R1 & R2 & R3);
    [|exact Hn|exact Hr|intros a t _; reflexivity|exact E2|].
  { apply Forall_forall. intros t Hin. apply in_map. exact Hin. }
  rewrite R1. split; assumption.
Qed.
End Loops.

(* What [entry_valid_at] does not re-state about a decoded, signature-checked batch (Model/Codec.v:
   tx_validate has the ticker range; valid_extids needs a signature whose RCD hashes to the input
   address, and nobody has one for the burn address). *)
Definition tx_wf (burn : addr) (t : tx) : bool := valid_ticker (tx_type t) && negb (tx_addr t =? burn).
Definition batch_wf (burn : addr) (o : option (list tx)) : bool :=
  match o with Some txs => forallb (tx_wf burn) txs | None => true end.
Definition entry_wf (c : cfg) (h : Z) (e : entry) : bool := batch_wf (burn_addr c h) (entry_valid_at c e h).

(* what an arriving entry can add to any one balance cell: the transfers of a batch without
   conversions (a batch with conversions goes to the holding table, an invalid entry is skipped) *)
Definition arrival_credit (c : cfg) (h : Z) (e : entry) : Z :=
  match entry_valid_at c e h with
  | Some txs => if has_conversions txs then 0 else transfers_total txs
  | None => 0
  end.
Definition block_credit (c : cfg) (h : Z) (es : list entry) : Z := fold_right (fun e acc => arrival_credit c h e + acc) 0 es.

Lemma transfers_total_nonneg txs : txs_ok txs -> 0 <= transfers_total txs.
Proof.
  intros Hok. unfold txs_ok in Hok. rewrite Forall_forall in Hok.
  apply (fold_sum_nonneg (fun t => transfers_sum (tx_transfers t))). intros t Ht. exact (transfers_sum_nonneg _ (proj2 (Hok t Ht))).
Qed.
Lemma txs_credit_transfers c h rates avgs txs : has_conversions txs = false -> txs_credit c h rates avgs txs = transfers_total txs.
Proof.
  induction txs as [|t txs IH]; intros Hc; [reflexivity|]. apply has_conversions_cons in Hc as [Hc1 Hc2].
  cbn [txs_credit transfers_total fold_right]. unfold tx_credit at 1. rewrite Hc1.
  fold (txs_credit c h rates avgs txs). fold (transfers_total txs). rewrite (IH Hc2). reflexivity.
Qed.
Lemma arrival_credit_nonneg c h e : 0 <= arrival_credit c h e.
Proof.
  unfold arrival_credit. destruct (entry_valid_at c e h) as [txs|] eqn:E; [|lia].
  destruct (has_conversions txs); [lia|]. apply transfers_total_nonneg. eapply entry_valid_at_ok; exact E.
Qed.
Lemma block_credit_nonneg c h es : 0 <= block_credit c h es.
Proof. apply (fold_sum_nonneg (arrival_credit c h)). intros e _. apply arrival_credit_nonneg. Qed.

(* from the decoder's guarantees to what recordBatch needs of every transaction; the one condition
   on the batch: no PEG request once they are deferred to the bank *)
Lemma tx_wf_pre c h txs :
  forallb (tx_wf (burn_addr c h)) txs = true -> txs_ok txs ->
  ((c_PegnetConversionLimitActivation c <=? h) && has_peg_request txs) = false ->
  Forall (tx_pre c h) txs /\ ~ In (burn_addr c h) (map tx_addr txs).
Proof.
  intros Hw Hok Hp. rewrite forallb_forall in Hw. split.
  - apply Forall_forall. intros t Hin. unfold tx_pre. pose proof (Hw t Hin) as W. unfold tx_wf in W. apply andb_prop in W as [W1 _].
    split; [exact W1|]. split; [unfold txs_ok in Hok; rewrite Forall_forall in Hok; apply Hok; exact Hin|].
    destruct (c_PegnetConversionLimitActivation c <=? h); [|reflexivity]. cbn [andb] in *.
    apply not_true_is_false. intros Ep. unfold has_peg_request in Hp.
    assert (K : existsb is_peg_request txs = true) by (apply existsb_exists; exists t; auto). congruence.
  - intros Hin. apply in_map_iff in Hin as (t & Ht & Hin). specialize (Hw t Hin). unfold tx_wf in Hw. apply andb_prop in Hw as [_ W]. lia.
Qed.
Lemma no_conversions_no_peg_request txs : has_conversions txs = false -> has_peg_request txs = false.
Proof.
  intros Hc. apply not_true_is_false. intros K. apply existsb_exists in K as (t & Hin & Ep). apply is_peg_request_conversion in Ep.
  assert (T : has_conversions txs = true) by (apply existsb_exists; exists t; auto). congruence.
Qed.

(* rates and averages are uint64 in the code: what Convert returns is then not negative *)
Lemma conv_of_nonneg c h rates avgs :
  (forall t, 0 <= rate_of rates t) -> (forall t, 0 <= rate_of avgs t) ->
  forall t out, conv_of c h rates avgs t = Some out -> 0 <= out.
Proof.
  intros Hr Ha t out H. unfold conv_of, convert_h in H. eapply convert_range; [| | | |exact H]; auto.
Qed.
Lemma conv_of_empty_nonneg c h t out : conv_of c h ∅ ∅ t = Some out -> 0 <= out.
Proof. apply conv_of_nonneg; intros t0; unfold rate_of; rewrite lookup_empty; apply Z.le_refl. Qed.

(* On a closed state an entry is skipped, or its history rows are recorded; what is left of
   apply_entry is then the holding insert, which succeeds, or the batch. *)
Lemma apply_entry_on_closed c h s order e :
  hist_closed s ->
  apply_entry c h s order e = Ok s \/
  exists txs s1, entry_valid_at c e h = Some txs /\ bal s1 = bal s /\
    if has_conversions txs then exists s2, apply_entry c h s order e = Ok s2 /\ bal s2 = bal s
    else apply_entry c h s order e =
           match apply_batch c h s1 (e_hash e) txs ∅ ∅ with
           | BApplied s2 => Ok s2
           | BRejected code => if code =? -1 then Ok (set_executed s1 (e_hash e) (-1)) else Fail (100 - code)
           | BDropped => Ok s1
           | BFail code => Fail code
           end.
Proof.
  intros Hcl. unfold apply_entry.
  destruct (entry_valid_at c e h) as [txs|]; [|left; reflexivity].
  destruct (is_replay s (e_hash e)); [left; reflexivity|].
  destruct (hist_has s (e_hash e)) eqn:Eh; [left; reflexivity|]. right.
  destruct (insert_history_total s e order h txs Hcl Eh) as (s1 & I1).
  rewrite I1. cbn [rbind]. exists txs, s1. split; [reflexivity|]. split; [exact (insert_history_bal _ _ _ _ _ _ I1)|].
  destruct (has_conversions txs); [|reflexivity].
  (* closed: a hash that is not recorded is not held *)
  destruct (insert_holding_total s1 e h) as (s2 & J1 & _ & _ & J4 & _).
  { apply insert_history_ok in I1 as (_ & lks & ->). intros K. apply hist_has_false in Eh. apply Eh, Hcl, K. }
  exists s2. split; [exact J1|]. rewrite J4. exact (insert_history_bal _ _ _ _ _ _ I1).
Qed.

Theorem apply_entry_total c h s order e n :
  hist_closed s -> entry_wf c h e = true -> 0 <= n -> bal_room s (arrival_credit c h e + n) ->
  exists s', apply_entry c h s order e = Ok s' /\ hist_closed s' /\ bal_room s' n.
Proof.
  intros Hcl Hwf Hn Hr. pose proof (arrival_credit_nonneg c h e) as Hcr.
  assert (Hr0 : bal_room s n) by (eapply bal_room_weaken; [|exact Hr]; lia).
  (* the invariant comes with the writes *)
  enough (G : exists s', apply_entry c h s order e = Ok s' /\ bal_room s' n).
  { destruct G as (s' & E & G). exists s'. split; [exact E|]. split; [|exact G].
    exact (lwrites_closed True _ _ _ _ (apply_entry_writes c _ _ _ _ _ E) Hcl). }
  destruct (apply_entry_on_closed c h s order e Hcl) as [E|(txs & s1 & Ev & B1 & H)]; [rewrite E; eauto|].
  unfold entry_wf, arrival_credit in *. rewrite Ev in *. cbn [batch_wf] in Hwf.
  destruct (has_conversions txs) eqn:Hc.
  - destruct H as (s2 & E & B2). exists s2. split; [exact E|exact (bal_room_eq _ _ _ B2 Hr0)].
  - rewrite H. destruct (tx_wf_pre c h txs Hwf (entry_valid_at_ok c e h txs Ev)) as [Hpre Hburn]; [rewrite (no_conversions_no_peg_request txs Hc); apply andb_false_r|].
    pose proof (apply_batch_total c h s1 (e_hash e) txs ∅ ∅ n Hpre Hburn (conv_of_empty_nonneg c h) (or_intror Hc) Hn) as T.
    rewrite (txs_credit_transfers c h ∅ ∅ txs Hc) in T. specialize (T (bal_room_eq _ _ _ B1 Hr)).
    destruct (apply_batch c h s1 (e_hash e) txs ∅ ∅) as [s2|code| |code].
    + exists s2. split; [reflexivity|apply T].
    + rewrite (T Hc). eexists. split; [reflexivity|]. eapply bal_room_eq; [rewrite bal_set_executed; exact B1|exact Hr0].
    + congruence.
    + contradiction.
Qed.

Theorem apply_tx_block_total c h s es n :
  hist_closed s -> Forall (fun e => entry_wf c h e = true) es -> 0 <= n -> bal_room s (block_credit c h es + n) ->
  exists s', apply_tx_block c h s es = Ok s' /\ hist_closed s' /\ bal_room s' n.
Proof.
  rewrite apply_tx_block_fold. intros Hcl Hwf Hn Hr. revert s Hcl Hr. generalize 0 as i.
  induction Hwf as [|e es Hw _ IH]; intros i s Hcl Hr; cbn [block_credit fold_right] in Hr.
  - exists s. rewrite Z.add_0_l in Hr. auto.
  - fold (block_credit c h es) in Hr. rewrite <- Z.add_assoc in Hr.
    pose proof (block_credit_nonneg c h es) as Hb.
    destruct (apply_entry_total c h s i e (block_credit c h es + n) Hcl Hw) as (s1 & A1 & A2 & A3); [lia|exact Hr|].
    rewrite tx_fold_cons, A1. cbn [rbind]. apply IH; assumption.
Qed.
