(* Lemmas/TotalityInvariant.v — [hist_closed] is an invariant of the whole block function, hence of
   every state reached by replay from the fresh database: the invariant under which the totality
   theorems of TotalityLemmas.v / TotalityHolding.v hold is not an assumption about the state.

   Every insert into pn_history_transaction in the model (an arriving batch, a factoid burn, a
   miner / staker payout, the snapshot payouts, a developer payout, the zeroing coinbase) comes after
   the insert of the pn_history_txbatch row of the same hash; a held batch is inserted after its
   history rows; nothing is ever deleted from pn_history_txbatch.  The write steps record exactly
   that ([l_htx], [l_hold]), so the invariant is kept step by step (TotalityLemmas.lwrites_closed). *)
From Model Require Import Obs.
From Lemmas Require Import DbLemmas LedgerLemmas BlockLemmas ChainLemmas TotalityLemmas.
Open Scope Z_scope.

Lemma keys_insert_grade h s v s' : insert_grade h s v = Ok s' -> keys s' = keys s.
Proof. intros H. apply insert_grade_shape in H as (? & ? & ->). reflexivity. Qed.
Lemma keys_insert_rates cm h s a ph s' : insert_rates cm h s a ph = Ok s' -> keys s' = keys s.
Proof. intros H. apply insert_rates_shape in H as (_ & ? & -> & _). reflexivity. Qed.
Lemma keys_insert_synced s h s' : insert_synced s h = Ok s' -> keys s' = keys s.
Proof. intros H. apply insert_synced_shape in H as (_ & ->). reflexivity. Qed.

Section WithCfg.
Variable c : cfg.

Theorem step_block_closed cm mem b s' mem' :
  hist_closed cm -> step_block c cm mem b = Done (s', mem') -> hist_closed s'.
Proof.
  intros Hc H. revert H Hc. apply step_block_invariant.
  - intros s s0 [] Hc.
    + eapply lwrites_closed; [apply lwrites_step|]; eassumption.
    + eapply hist_closed_keys; [eapply keys_insert_grade; eassumption|exact Hc].
    + eapply hist_closed_keys; [eapply keys_insert_rates; eassumption|exact Hc].
  - intros s s0 H Hc. eapply hist_closed_keys; [eapply keys_insert_synced; exact H|exact Hc].
Qed.

Lemma hist_closed_genesis : hist_closed genesis.
Proof. split; intros x Hx; destruct Hx. Qed.

(* in every state reached by replay from the fresh database the invariant holds *)
Theorem replay_closed bs s m : replay c genesis empty_cache bs = Done (s, m) -> hist_closed s.
Proof. apply (replay_invariant c hist_closed); [intros; eapply step_block_closed; eauto|apply hist_closed_genesis]. Qed.
End WithCfg.

Print Assumptions step_block_closed.
Print Assumptions replay_closed.
