(* Lemmas/BlockLemmas.v — block level (Model/Block.v): the outcome monad; the rows a block writes
   itself (pn_grade, pn_rate, the sync mark); the irregular folds (developer payouts,
   NullifyBurnAddress) characterised; payouts and adjustments as ledger writes; SyncBlock cut into
   its phases with one inversion lemma each, what a block records in pn_rate as a function of its
   two verdicts ([rate_choice]) and SyncBlock read through that choice; everything a block does to
   the database as a sequence of writes ([bwrites]) and what those leave alone; hence balances
   never negative across SyncBlock and the loop body. *)
From Model Require Import Block.
From Lemmas Require Import DbLemmas LedgerLemmas PayoutLemmas IssuanceLemmas.
From Gen Require Import Consts.
From Coq Require Import Lia ZifyBool Relations RelationClasses.
Open Scope Z_scope.

Lemma obind_done {A B} (r : outcome A) (f : A -> outcome B) b :
  obind r f = Done b -> exists a, r = Done a /\ f a = Done b.
Proof. destruct r; cbn; intros H; try discriminate. eauto. Qed.
Lemma of_res_done {A} (r : res A) a : of_res r = Done a -> r = Ok a.
Proof. destruct r; cbn; intros H; inversion H; reflexivity. Qed.
Lemma obind_assoc {A B C} (r : outcome A) (f : A -> outcome B) (g : B -> outcome C) :
  obind (obind r f) g = obind r (fun a => obind (f a) g).
Proof. destruct r; reflexivity. Qed.

Ltac done_step H x Hx := apply obind_done in H as (x & Hx & H).

(* For the examples: a fact about the result of a closed run is proved by evaluating the fact,
   not the run.  Reading a whole [db] back from the virtual machine (gmaps with their proofs)
   takes seconds, is repeated by [Qed] and again by coqchk; a projection of it takes none. *)
Lemma done_witness {A B} (r : outcome (A * B)) (P : A -> B -> Prop) :
  match r with Done (a, b) => P a b | _ => False end -> exists a b, r = Done (a, b) /\ P a b.
Proof. destruct r as [[a b]| | |]; [eauto|contradiction..]. Qed.
Lemma done_exists {A} (r : outcome A) : match r with Done _ => True | _ => False end -> exists a, r = Done a.
Proof. destruct r; [eauto|contradiction..]. Qed.
Lemma done_exists2 {A B} (r : outcome (A * B)) :
  match r with Done _ => True | _ => False end -> exists a b, r = Done (a, b).
Proof. destruct r as [[a b]| | |]; [eauto|contradiction..]. Qed.
Lemma ok_witness {A} (r : res A) (P : A -> Prop) :
  match r with Ok a => P a | _ => False end -> exists a, r = Ok a /\ P a.
Proof. destruct r; [eauto|contradiction..]. Qed.

(* the rows InsertGradeBlock adds to pn_winners carry the height it is called with *)
Lemma insert_grade_ok h s v s' :
  insert_grade h s v = Ok s' ->
  grades s !! h = None /\
  exists w, s' = set_grades s (<[h := v_short v]> (grades s)) (winners s ++ w) /\ Forall (fun r => fst (fst (fst (fst r))) = h) w.
Proof.
  unfold insert_grade. destruct (grades s !! h); [discriminate|]. cbv zeta.
  destruct (existsb _ _); [discriminate|]. intros H; inversion H. split; [reflexivity|]. eexists. split; [reflexivity|].
  destruct (v_winners v); [constructor|]. apply Forall_forall. intros r Hin. apply in_map_iff in Hin as (w0 & <- & _). reflexivity.
Qed.
Lemma insert_grade_shape h s v s' : insert_grade h s v = Ok s' -> exists g w, s' = set_grades s g w.
Proof. intros H. apply insert_grade_ok in H as (_ & w & -> & _). eauto. Qed.
Lemma bal_insert_grade h s v s' : insert_grade h s v = Ok s' -> bal s' = bal s.
Proof. intros H. apply insert_grade_shape in H as (? & ? & ->). reflexivity. Qed.
Lemma insert_grade_rates h s v s' : insert_grade h s v = Ok s' -> rates s = rates s'.
Proof. intros H. apply insert_grade_shape in H as (? & ? & ->). reflexivity. Qed.

Lemma is_empty_map_insert {A} (m : gmap Z A) k v : is_empty_map (<[k := v]> m) = false.
Proof.
  unfold is_empty_map. destruct (map_to_list (<[k := v]> m)) eqn:E; [|reflexivity].
  apply map_to_list_empty_iff in E. exfalso. exact (insert_non_empty _ _ _ E).
Qed.

(* InsertRates always writes the PEG row: the map it records is never empty *)
Lemma insert_rates_shape cm h s a ph s' :
  insert_rates cm h s a ph = Ok s' ->
  rates s !! h = None /\ exists m, s' = set_rates s (<[h := m]> (rates s)) /\ is_empty_map m = false.
Proof.
  unfold insert_rates. destruct (rates s !! h); [discriminate|].
  destruct (has_dup _); [discriminate|]. destruct (existsb _ _); [discriminate|].
  repeat match goal with |- (if ?b then _ else _) = _ -> _ => destruct b; [discriminate|] end.
  intros H; inversion H. split; [reflexivity|]. eexists. split; [reflexivity|]. apply is_empty_map_insert.
Qed.

Lemma insert_synced_shape s h s' :
  insert_synced s h = Ok s' -> versions s !! h = None /\ s' = set_synced s (Some h) (<[h := PegnetdSyncVersion]> (versions s)).
Proof. unfold insert_synced. destruct (versions s !! h); [discriminate|]. intros H; inversion H; auto. Qed.
Lemma bal_insert_synced s h s' : insert_synced s h = Ok s' -> bal s' = bal s.
Proof. intros H. apply insert_synced_shape in H as (_ & ->). reflexivity. Qed.
Lemma rates_insert_synced s h s' : insert_synced s h = Ok s' -> rates s' = rates s.
Proof. intros H. apply insert_synced_shape in H as (_ & ->). reflexivity. Qed.

(* [untouched_db] (DbLemmas.v) extended to the rows the block level writes itself *)
Ltac untouched :=
  intros;
  try match goal with H : insert_grade _ _ _ = Ok _ |- _ => apply insert_grade_shape in H as (? & ? & ->) end;
  try match goal with H : insert_rates _ _ _ _ _ = Ok _ |- _ => apply insert_rates_shape in H as (? & ? & -> & ?) end;
  try match goal with H : insert_synced _ _ = Ok _ |- _ => apply insert_synced_shape in H as (? & ->) end;
  untouched_db.

Lemma dev_rewards_nonneg : forallb (fun d => let '(_, _, pre, post) := d in (0 <=? pre) && (0 <=? post)) dev_rewards = true.
Proof. vm_compute. reflexivity. Qed.
Lemma mint_list_line m : In m mint_list -> 0 <= snd m /\ valid_ticker (fst m) = true.
Proof.
  intros Hm. destruct mint_list_wellformed as [W _]. rewrite forallb_forall in W. specialize (W m Hm). cbv beta in W.
  apply andb_prop in W as [W _]. apply andb_prop in W as [W1 W2]. split; [apply Z.lt_le_incl, Z.ltb_lt, W1|exact W2].
Qed.

(* DevelopersPayouts walks the list with two counters and keeps the state it reached beside its
   result; as far as the result goes it is an ordinary error-monad fold over the indexed list *)
Fixpoint dev_indexed (i j : Z) (l : list (Z * Z * Z * Z)) : list (Z * Z * (Z * Z * Z * Z)) :=
  match l with [] => [] | d :: l' => (i, j, d) :: dev_indexed (if 9 <? i + 1 then 0 else i + 1) (j + 1) l' end.
Lemma dev_indexed_in i j l x : In x (dev_indexed i j l) -> In (snd x) l.
Proof. revert i j. induction l as [|d l IH]; intros i j; cbn [dev_indexed]; [auto|]. intros [<-|H]; [left; reflexivity|right; eapply IH; exact H]. Qed.

Section WithCfg.
Variable c : cfg.

Definition dev_pay (h ts : Z) (s0 : db) (x : Z * Z * (Z * Z * Z * Z)) : res db :=
  let '(i, j, (a, _, pre, post)) := x in
  let reward := if c_V202EnhanceActivation c <=? h then post else pre in
  let hs := mock_hash_dev j h in
  let? s1 := add_to_balance s0 a PTickerPEG reward in
  let? s2 := insert_hbatch s1 {| hb_hash := hs; hb_height := h; hb_order := 0; hb_ts := ts; hb_exec := h |} in
  insert_htx s2 (coinbase_row hs i a PTickerPEG reward) [a].

Lemma developers_payouts_fst h ts s :
  fst (developers_payouts c h ts s) =
  fold_left (fun r x => let? s0 := r in dev_pay h ts s0 x) (dev_indexed 0 1 dev_rewards) (Ok s).
Proof.
  unfold developers_payouts. cbv zeta. generalize dev_rewards as l. intros l.
  set (step := fun (acc : Z * Z * (res db * db)) (d : Z * Z * Z * Z) => _).
  enough (G : forall l r reached i j,
            fst (snd (fold_left step l ((i, j), (r, reached)))) =
            fold_left (fun r x => let? s0 := r in dev_pay h ts s0 x) (dev_indexed i j l) r) by apply G.
  clear l. induction l as [|d l IH]; intros r reached i j; cbn [fold_left dev_indexed snd fst]; [reflexivity|].
  unfold step at 2. destruct r as [s0|e|e]; [|rewrite IH, !fold_res_not_ok by discriminate; reflexivity..].
  destruct d as [[[a bits] pre] post]. cbn [rbind]. unfold dev_pay at 2.
  destruct (add_to_balance s0 a PTickerPEG _) as [s1|e|e]; cbn [rbind]; [|apply IH..].
  destruct (insert_hbatch s1 _) as [s2|e|e]; cbn [rbind]; [|apply IH..].
  destruct (insert_htx s2 _ _) as [s3|e|e]; apply IH.
Qed.

(* NullifyBurnAddress drops every error and hands back the state it reached: whatever it does is
   a debit of the burn address in force, a batch row, or a batch row followed by its zero-amount
   coinbase row (taken as one step) *)
Lemma nullify_burn_ind (T : db -> db -> Prop) `{!PreOrder T} cm h ts :
  let a := if c_V202EnhanceActivation c <=? h then GlobalBurnAddress else GlobalOldBurnAddress in
  let brow j := {| hb_hash := mock_hash (h - j); hb_height := h; hb_order := 0; hb_ts := ts; hb_exec := h |} in
  (forall s t s', sub_ignoring_txerr s a t (get_bal (bal cm) a t) = Ok s' -> T s s') ->
  (forall s j s', insert_hbatch s (brow j) = Ok s' -> T s s') ->
  (forall s i j t s1 s', insert_hbatch s (brow j) = Ok s1 ->
                         insert_htx s1 (coinbase_row (mock_hash (h - j)) i a t 0) [a] = Ok s' -> T s s') ->
  forall s, T s (nullify_burn c cm h ts s).
Proof.
  intros a brow Hsub Hhb Hhtx s. unfold nullify_burn.
  set (step := fun (acc : Z * Z * (bool * db)) (t : Z) => _).
  generalize (0, (if c_V202EnhanceActivation c <=? h then 50 else 0)) as ij.
  generalize true as live. generalize all_tickers as l.
  enough (G : forall l live ij s0, T s s0 -> T s (snd (snd (fold_left step l (ij, (live, s0)))))) by (intros; apply G; reflexivity).
  induction l as [|t l IH]; intros live [i j] s0 Hp; cbn [fold_left]; [exact Hp|].
  unfold step at 2. destruct live; cbn [negb]; [|apply IH; exact Hp]. fold a.
  set (s1 := match sub_ignoring_txerr s0 a t (get_bal (bal cm) a t) with Ok s' => s' | _ => s0 end).
  assert (Hp1 : T s s1).
  { unfold s1. destruct (sub_ignoring_txerr s0 a t _) eqn:E; try exact Hp. etransitivity; [exact Hp|eapply Hsub; exact E]. }
  destruct (c_V202EnhanceActivation c <=? h); [apply IH; exact Hp1|].
  destruct (insert_hbatch s1 _) as [s2|?|?] eqn:E2; try (apply IH; exact Hp1).
  destruct (0 <? _); [apply IH; etransitivity; [exact Hp1|eapply (Hhb _ j); exact E2]|].
  destruct (insert_htx s2 _ _) as [s3|?|?] eqn:E3; apply IH; etransitivity; try exact Hp1;
    [eapply (Hhtx _ _ j); eassumption|eapply (Hhb _ j); exact E2..].
Qed.

(* from 2.0.2 on there is no zeroing coinbase: NullifyBurnAddress is a plain fold of debits whose
   errors are dropped *)
Lemma nullify_burn_new_era_eq cm h ts s :
  c_V202EnhanceActivation c <= h ->
  nullify_burn c cm h ts s =
  fold_left (fun s0 t => match sub_ignoring_txerr s0 GlobalBurnAddress t (get_bal (bal cm) GlobalBurnAddress t) with
                         | Ok s' => s' | _ => s0 end) all_tickers s.
Proof.
  intros H. unfold nullify_burn. rewrite (proj2 (Z.leb_le _ _) H). cbv zeta.
  revert s. generalize (0, 50) as ij. generalize all_tickers as l.
  induction l as [|t l IH]; intros [i j] s; cbn [fold_left negb]; [reflexivity|]. apply IH.
Qed.

Lemma mint_tokens_writes K s s' : mint_tokens s = Ok s' -> lwrites K false false s s'.
Proof. unfold mint_tokens. apply lwrites_fold. intros s0 m s1 Hin H. eapply add_writes; [apply mint_list_line, Hin|exact H]. Qed.

(* the amounts debited by the one-time adjustments are cells of the committed database *)
Lemma sub_ignoring_writes cm s a t s' :
  sub_ignoring_txerr s a t (get_bal (bal cm) a t) = Ok s' -> lwrites (nonneg cm) false false s s'.
Proof.
  unfold sub_ignoring_txerr. destruct (sub_from_balance s a t _) eqn:E; intros H; inversion H; subst; [|reflexivity].
  eapply lwrites_step, l_sub; [intros Hc; apply Hc|exact E].
Qed.

Lemma nullify_minted_writes cm s s' : nullify_minted cm s = Ok s' -> lwrites (nonneg cm) false false s s'.
Proof. unfold nullify_minted. apply lwrites_fold. intros; eapply sub_ignoring_writes; eassumption. Qed.

Lemma nullify_burn_writes cm h ts s : lwrites (nonneg cm) true false s (nullify_burn c cm h ts s).
Proof.
  apply (nullify_burn_ind (lwrites (nonneg cm) true false)); cbv zeta.
  - intros s0 t s1 H. eapply lwrites_le, sub_ignoring_writes; [reflexivity..|exact H].
  - intros s0 j s1 H. eapply lwrites_step, l_hb, H.
  - intros s0 i j t s1 s2 H1 H2. transitivity s1; [eapply lwrites_step, l_hb, H1|].
    eapply lwrites_step, l_htx; [|exact H2]. exact (hist_has_insert_hbatch _ _ _ H1).
Qed.

Lemma developers_payouts_writes K h ts s s' : fst (developers_payouts c h ts s) = Ok s' -> lwrites K true false s s'.
Proof.
  rewrite developers_payouts_fst. apply lwrites_fold. intros s0 [[i j] [[[a bits] pre] post]] s1 Hin H.
  apply dev_indexed_in in Hin. pose proof dev_rewards_nonneg as T. rewrite forallb_forall in T. specialize (T _ Hin). cbn in T.
  eapply credit_logged_writes; [| |exact H]; [destruct (_ <=? h); lia|reflexivity].
Qed.

(* SnapshotCurrent + StakingPayouts in named pieces.  The two tests of the stake computation: every
   Convert succeeds, every total is a uint64 *)
Definition stakes_in_range (h : Z) (rates : gmap ticker Z) (s : db) : bool :=
  forallb (fun a => match stake_of c h rates (snap_cur s) (bal s) a with Some v => v <? two64 | None => false end)
          (addrs_of (bal s)).
(* the positive stakes, sorted, each with its position *)
Definition staking_indexed (h : Z) (rates : gmap ticker Z) (s : db) : list (Z * (addr * Z)) :=
  let stakes' := map (fun x => (fst x, default 0 (snd x)))
                     (map (fun a => (a, stake_of c h rates (snap_cur s) (bal s) a)) (addrs_of (bal s))) in
  index_from 0 (sort_stakes (filter (fun x => 0 <? snd x) stakes')).
Definition staking_reqs (h : Z) (rates : gmap ticker Z) (s : db) : requests :=
  map (fun x : Z * (addr * Z) => ((mock_hash h, fst x), snd (snd x))) (staking_indexed h rates s).
(* a payout is credited to the address at its position *)
Definition staking_payee (h : Z) (rates : gmap ticker Z) (s : db) (p : txid * Z) : addr :=
  match find (fun x => fst x =? snd (fst p)) (staking_indexed h rates s) with Some x => fst (snd x) | None => 0 end.
Definition staking_batch (h ts : Z) : hbatch :=
  {| hb_hash := mock_hash h; hb_height := h; hb_order := 0; hb_ts := ts; hb_exec := h |}.
Definition staking_row (h : Z) (payee : txid * Z -> addr) (p : txid * Z) : htx :=
  coinbase_row (mock_hash h) (snd (fst p)) (payee p) PTickerPEG (snd p).
Definition staking_rows (h : Z) (payee : txid * Z -> addr) (pays : list (txid * Z)) (s : db) : res db :=
  fold_left (fun r p => let? s0 := r in
                        if two63 <=? snd p then Fail E_SQLARG else insert_htx s0 (staking_row h payee p) [payee p])
            pays (Ok s).
Definition staking_credits (payee : txid * Z -> addr) (pays : list (txid * Z)) (s : db) : res db :=
  fold_left (fun r p => let? s0 := r in add_to_balance s0 (payee p) PTickerPEG (snd p)) pays (Ok s).

Lemma stakes_in_range_guards (f : addr -> option Z) l :
  forallb (fun a => match f a with Some v => v <? two64 | None => false end) l =
  negb (existsb (fun x : addr * option Z => match snd x with None => true | Some _ => false end) (map (fun a => (a, f a)) l)) &&
  negb (existsb (fun x : addr * Z => two64 <=? snd x)
          (map (fun x : addr * option Z => (fst x, default 0 (snd x))) (map (fun a => (a, f a)) l))).
Proof.
  induction l as [|a l IH]; [reflexivity|]. cbn [forallb existsb map fst snd]. rewrite IH.
  destruct (f a) as [v|]; [|reflexivity]. cbn [default from_option id orb].
  rewrite Z.leb_antisym. destruct (v <? two64), (existsb _ _), (existsb _ _); reflexivity.
Qed.

(* the snapshots rotate; if the stakes pass the two tests and one of them is positive: one batch
   row, a coinbase row per payout, then a credit per payout *)
Lemma snapshot_payouts_ok h ts rates s s' :
  snapshot_payouts c h ts rates s = Ok s' <->
  stakes_in_range h rates s = true /\
  let s1 := set_snaps s (bal s) (snap_cur s) in
  let pays := payouts (PerBlockAssetHolders * SnapshotRate) (staking_reqs h rates s) in
  (staking_reqs h rates s = [] /\ s' = s1 \/
   staking_reqs h rates s <> [] /\
   exists s2 s3, insert_hbatch s1 (staking_batch h ts) = Ok s2 /\
                 staking_rows h (staking_payee h rates s) pays s2 = Ok s3 /\
                 staking_credits (staking_payee h rates s) pays s3 = Ok s').
Proof.
  unfold stakes_in_range. rewrite stakes_in_range_guards.
  unfold snapshot_payouts, staking_rows, staking_row, staking_credits, staking_payee, staking_reqs, staking_indexed.
  cbv beta zeta. cbn [snap_past snap_cur set_snaps].
  destruct (existsb _ _); [split; [discriminate|intros [[=] _]]|].
  destruct (existsb _ _); [split; [discriminate|intros [[=] _]]|]. split; [intros H; split; [reflexivity|]|intros [_ H]].
  - destruct (sort_stakes _) as [|x0 lst0]; [left; inversion H; auto|right; split; [discriminate|]].
    apply rbind_ok in H as (s2 & H1 & H). apply rbind_ok in H as (s3 & H2 & H3). exists s2, s3. auto.
  - destruct (sort_stakes _) as [|x0 lst0]; destruct H as [[E H]|[E H]]; try discriminate; [congruence|contradiction|].
    destruct H as (s2 & s3 & H1 & H2 & H3). unfold staking_batch in H1. rewrite H1. cbn [rbind]. exact (eq_trans (f_equal (fun r => rbind r _) H2) H3).
Qed.

Lemma staking_reqs_range h rates s :
  stakes_in_range h rates s = true -> Forall (fun r => 0 < snd r < two64) (staking_reqs h rates s).
Proof.
  intros Hfit. unfold staking_reqs. rewrite Forall_map, Forall_forall. intros x Hx. cbn [snd].
  apply index_from_in, sort_stakes_in, filter_In in Hx as [Hx Hpos].
  rewrite map_map in Hx. apply in_map_iff in Hx as (a & E & Ha). rewrite <- E in *. cbn [fst snd] in *.
  unfold stakes_in_range in Hfit. rewrite forallb_forall in Hfit. specialize (Hfit a Ha).
  destruct (stake_of _ _ _ _ _ a); cbn [default from_option id] in *; lia.
Qed.

Lemma snapshot_payouts_writes K h ts rates s s' : snapshot_payouts c h ts rates s = Ok s' -> lwrites K true false s s'.
Proof.
  intros H. apply snapshot_payouts_ok in H as [Hfit H]. cbv zeta in H.
  etransitivity; [apply lwrites_step, (l_snaps K true false s (bal s) (snap_cur s))|].
  destruct H as [[_ ->]|(_ & s2 & s3 & H1 & H2 & H3)]; [reflexivity|].
  transitivity s2; [eapply lwrites_step, l_hb; exact H1|]. apply hist_has_insert_hbatch in H1. cbn [hb_hash staking_batch] in H1. transitivity s3.
  - refine (proj1 (fold_res_invariant (fun x => lwrites K true false s2 x /\ hist_has x (mock_hash h) = true) _ _ _ s2 s3 _ H2));
      [|split; [reflexivity|exact H1]].
    intros s0 p s4 [Hp Hh] Hs. destruct (two63 <=? snd p); [discriminate|].
    split; [transitivity s0; [exact Hp|eapply lwrites_step, l_htx; [|exact Hs]; exact Hh]|].
    unfold hist_has. rewrite (hist_insert_htx _ _ _ _ Hs). exact Hh.
  - revert H3. apply lwrites_fold. intros s0 p s4 Hin. apply add_writes.
    revert p Hin. apply Forall_forall, payouts_nonneg. eapply Forall_impl, staking_reqs_range, Hfit. cbv beta. lia.
Qed.

(* [sync_block] is one long function; the pieces below are its text cut at the points where the
   state is handed on, so that a proof about a block can speak of one phase at a time. *)
Definition adjust_phase (cm : db) (h : Z) (s : db) : outcome db :=
  let! s := of_res (if h =? c_V204EnhanceActivation c then mint_tokens s else Ok s) in
  of_res (if h =? c_V204BurnMintedTokenActivation c then nullify_minted cm s else Ok s).

Definition spr_verdict (cm : db) (b : block) : outcome (option verdict) :=
  if c_V20HeightActivation c <=? b_height b then grade_spr c cm b else Done None.

(* grading rows and rate rows; returns (state, is_rates, ended) *)
Definition rate_phase (cm : db) (b : block) (graded gradedS : option verdict) (s : db) : outcome (db * bool * bool) :=
  let h := b_height b in
  if h <? c_V20HeightActivation c then
    match graded with
    | None => Done (s, false, false)
    | Some v =>
      let! s1 := of_res (insert_grade h s v) in
      match v_winners v with
      | [] => Done (s1, false, false)
      | _ => let! s2 := of_res (insert_rates cm h s1 (v_assets v) (peg_phase c h)) in Done (s2, true, false)
      end
    end
  else
    if grade_spr_err c cm b then Stuck 21 else
    let! s1 := match graded with Some v => of_res (insert_grade h s v) | None => Done s end in
    let o := first_assets graded in let sp := first_assets gradedS in
    match o, sp with
    | [], [] => Done (s1, false, false)
    | _, _ => match select_rates c h o sp with
              | RErr => Done (s1, false, true)
              | RSel l => let! s2 := of_res (insert_rates cm h s1 l 3) in Done (s2, true, false)
              end
    end.

(* the staking snapshot; also chooses the rate map the holding pass will see *)
Definition snapshot_phase (h ts : Z) (s : db) : outcome (db * gmap ticker Z) :=
  let rates0 := default ∅ (rates s !! h) in
  if (c_V20HeightActivation c <=? h) && (h mod SnapshotRate =? 0) then
    let rates1 := if is_empty_map rates0 && (c_V202EnhanceActivation c <=? h)
                  then default ∅ (rates s !! (last_rated_below s h)) else rates0 in
    let! s' := of_res (snapshot_payouts c h ts rates1 s) in Done (s', rates1)
  else Done (s, rates0).

(* bank row and holding pass of a rated block: the only place where the average cache is used *)
Definition holding_phase (cm : db) (mem : avgcache) (h : Z) (is_rates : bool) (rates1 : gmap ticker Z) (s : db)
  : outcome (db * avgcache) :=
  if is_rates then
    let! s1 := of_res (if (c_V4OPRUpdate c <=? h) && (h <? c_V20HeightActivation c) then insert_bank s h BankBaseAmount else Ok s) in
    let '(avgs, mem') := get_averages cm (c_AveragePeriod c) mem (last_rated_below s1 h) in
    let! s2 := of_res (apply_holding c cm h s1 rates1 avgs) in Done (s2, mem')
  else Done (s, mem).

Definition tx_phase (cm : db) (mem : avgcache) (b : block) (is_rates : bool) (s : db) : outcome (db * avgcache) :=
  let h := b_height b in
  if c_TransactionConversionActivation c <=? h then
    let! st := snapshot_phase h (b_ts b) s in
    let '(s, rates1) := st in
    let! st := holding_phase cm mem h is_rates rates1 s in
    let '(s, mem') := st in
    let! s := match b_tx b with Some es => of_res (apply_tx_block c h s es) | None => Done s end in
    Done (s, mem')
  else Done (s, mem).

Definition payout_phase (b : block) (graded gradedS : option verdict) (s : db) : outcome db :=
  let h := b_height b in let ts := b_ts b in
  let! s := if h <? c_V20HeightActivation c then of_res (apply_factoid_block h s (b_factoid b)) else Done s in
  let! s := match graded with Some v => of_res (pay_winners s ts (v_winners v)) | None => Done s end in
  let! s := if c_V20HeightActivation c <=? h
            then match gradedS with Some v => of_res (pay_winners s ts (v_winners v)) | None => Done s end
            else Done s in
  if (c_V20DevRewardsHeightActivation c <=? h) && (h mod SnapshotRate =? 0)
  then of_res (fst (developers_payouts c h ts s)) else Done s.

Definition sync_phases (cm : db) (mem : avgcache) (b : block) (s : db) : outcome (db * avgcache) :=
  let! s := adjust_phase cm (b_height b) s in
  let! graded := grade_opr c cm b in
  let! gradedS := spr_verdict cm b in
  let! st := rate_phase cm b graded gradedS s in
  let '(s, is_rates, ended) := st in
  if ended then Done (s, mem) else
  let! st2 := tx_phase cm mem b is_rates s in
  let '(s, mem') := st2 in
  let! s := payout_phase b graded gradedS s in
  Done (s, mem').

(* one step of walking two monadic programs that differ only by re-association in lockstep *)
Ltac phstep :=
  first [ reflexivity
        | rewrite obind_assoc
        | match goal with |- obind ?x _ = obind ?y _ => unify x y; change y with x; destruct x; cbn [obind] end
        | match goal with |- context [let '(_, _) := ?p in _] => is_var p; destruct p end
        | match goal with |- (if ?b then _ else _) = (if ?b then _ else _) => destruct b end ].

Lemma sync_block_phases cm mem b s : sync_block c cm mem b s = sync_phases cm mem b s.
Proof.
  unfold sync_block, sync_phases, adjust_phase, spr_verdict, rate_phase, tx_phase, snapshot_phase, holding_phase, payout_phase.
  cbv beta zeta. repeat phstep.
Qed.

Lemma adjust_phase_inv cm h s s' :
  adjust_phase cm h s = Done s' ->
  exists s1, (if h =? c_V204EnhanceActivation c then mint_tokens s else Ok s) = Ok s1 /\
             (if h =? c_V204BurnMintedTokenActivation c then nullify_minted cm s1 else Ok s1) = Ok s'.
Proof. unfold adjust_phase. intros H. done_step H s1 H1. apply of_res_done in H1, H. eauto. Qed.

(* The rate rows of a block are a function of its two grading verdicts: the assets and the phase
   to record, or nothing.  Before 2.0 the OPR verdict has to have a winner; from 2.0 on at least one
   of the two verdicts has to offer assets and the band selection has to succeed. *)
Definition rate_choice (h : Z) (g gS : option verdict) : option (list (Z * Z) * Z) :=
  if h <? c_V20HeightActivation c then
    match g with
    | Some v => match v_winners v with [] => None | _ => Some (v_assets v, peg_phase c h) end
    | None => None
    end
  else match first_assets g, first_assets gS with
       | [], [] => None
       | o, sp => match select_rates c h o sp with RSel l => Some (l, 3) | RErr => None end
       end.

(* the grading row is written whenever there is an OPR verdict; the rate rows, the flag that
   starts the holding pass and the early end follow the choice *)
Lemma rate_phase_inv cm b g gS s s3 ir en :
  rate_phase cm b g gS s = Done (s3, ir, en) ->
  exists s1, match g with Some v => insert_grade (b_height b) s v | None => Ok s end = Ok s1 /\
    match rate_choice (b_height b) g gS with
    | Some (l, ph) => insert_rates cm (b_height b) s1 l ph = Ok s3 /\ ir = true /\ en = false
    | None => s3 = s1 /\ ir = false
    end.
Proof.
  unfold rate_phase, rate_choice. cbv zeta. intros H.
  destruct (b_height b <? c_V20HeightActivation c).
  - destruct g as [v|]; [|inversion H; subst; eexists; split; [reflexivity|auto]].
    done_step H s1 H1. apply of_res_done in H1. exists s1. split; [exact H1|].
    destruct (v_winners v); [inversion H; auto|].
    done_step H s2 H2. apply of_res_done in H2. inversion H; subst. auto.
  - destruct (grade_spr_err c cm b); [discriminate|].
    done_step H s1 H1. exists s1. split.
    { destruct g; [apply of_res_done in H1; exact H1|inversion H1; reflexivity]. }
    destruct (first_assets g), (first_assets gS); [inversion H; auto|..];
      (destruct (select_rates c _ _ _); [|inversion H; auto];
       done_step H s2 H2; apply of_res_done in H2; inversion H; subst; auto).
Qed.

Lemma snapshot_phase_inv h ts s s' r :
  snapshot_phase h ts s = Done (s', r) ->
  (exists k, r = default ∅ (rates s !! k)) /\ (s' = s \/ snapshot_payouts c h ts r s = Ok s').
Proof.
  unfold snapshot_phase. cbv zeta. destruct (_ && (h mod SnapshotRate =? 0)); intros H; [|inversion H; eauto].
  done_step H s1 H1. apply of_res_done in H1. inversion H; subst. split; [destruct (_ && _); eauto|auto].
Qed.

(* the snapshot falls back to the rates of the previous rated height only when the block has
   none of its own *)
Lemma snapshot_phase_own_rates h ts s s' r m :
  snapshot_phase h ts s = Done (s', r) -> rates s !! h = Some m -> is_empty_map m = false -> r = m.
Proof.
  unfold snapshot_phase. cbv zeta. intros H Hm He. rewrite Hm in H. cbn [default from_option id] in H.
  rewrite He in H. cbn [andb] in H. destruct (_ && _); [done_step H s1 H1|]; inversion H; reflexivity.
Qed.

Lemma holding_phase_rated cm mem h r s s' mem' :
  holding_phase cm mem h true r s = Done (s', mem') ->
  exists s1,
    (if (c_V4OPRUpdate c <=? h) && (h <? c_V20HeightActivation c) then insert_bank s h BankBaseAmount else Ok s) = Ok s1 /\
    apply_holding c cm h s1 r (fst (get_averages cm (c_AveragePeriod c) mem (last_rated_below s1 h))) = Ok s' /\
    mem' = snd (get_averages cm (c_AveragePeriod c) mem (last_rated_below s1 h)).
Proof.
  unfold holding_phase. intros H. done_step H s1 H1. apply of_res_done in H1. exists s1. split; [exact H1|].
  destruct (get_averages _ _ _ _) as [avgs m']. done_step H s2 H2. apply of_res_done in H2. inversion H; subst. auto.
Qed.

Lemma tx_phase_inv cm mem b ir s s' mem' :
  tx_phase cm mem b ir s = Done (s', mem') ->
  (b_height b < c_TransactionConversionActivation c /\ s' = s /\ mem' = mem) \/
  exists sa rates1 sc,
    snapshot_phase (b_height b) (b_ts b) s = Done (sa, rates1) /\
    holding_phase cm mem (b_height b) ir rates1 sa = Done (sc, mem') /\
    match b_tx b with Some es => apply_tx_block c (b_height b) sc es | None => Ok sc end = Ok s'.
Proof.
  unfold tx_phase. cbv zeta. intros H.
  destruct (Z.leb_spec (c_TransactionConversionActivation c) (b_height b)); [right|inversion H; auto].
  done_step H st Hs. destruct st as [sa rates1]. done_step H st Hh. destruct st as [sc m2]. done_step H s3 H3.
  inversion H; subst. exists sa, rates1, sc. split; [exact Hs|]. split; [exact Hh|].
  destruct (b_tx b); [apply of_res_done in H3; exact H3|inversion H3; reflexivity].
Qed.

Lemma payout_phase_inv b g gS s s' :
  let h := b_height b in let ts := b_ts b in
  payout_phase b g gS s = Done s' ->
  exists s1 s2 s3,
    (if h <? c_V20HeightActivation c then apply_factoid_block h s (b_factoid b) else Ok s) = Ok s1 /\
    match g with Some v => pay_winners s1 ts (v_winners v) | None => Ok s1 end = Ok s2 /\
    (if c_V20HeightActivation c <=? h then match gS with Some v => pay_winners s2 ts (v_winners v) | None => Ok s2 end
     else Ok s2) = Ok s3 /\
    (if (c_V20DevRewardsHeightActivation c <=? h) && (h mod SnapshotRate =? 0)
     then fst (developers_payouts c h ts s3) else Ok s3) = Ok s'.
Proof.
  unfold payout_phase. cbv zeta. intros H. done_step H s1 H1. done_step H s2 H2. done_step H s3 H3.
  exists s1, s2, s3. repeat split.
  - destruct (_ <? _); [apply of_res_done in H1; exact H1|inversion H1; reflexivity].
  - destruct g; [apply of_res_done in H2; exact H2|inversion H2; reflexivity].
  - destruct (_ <=? _); [|inversion H3; reflexivity]. destruct gS; [apply of_res_done in H3; exact H3|inversion H3; reflexivity].
  - destruct (_ && _); [apply of_res_done in H; exact H|inversion H; reflexivity].
Qed.

Lemma sync_block_inv cm mem b s s' mem' :
  sync_block c cm mem b s = Done (s', mem') ->
  exists s2 graded gradedS s3 is_rates ended,
    adjust_phase cm (b_height b) s = Done s2 /\ grade_opr c cm b = Done graded /\ spr_verdict cm b = Done gradedS /\
    rate_phase cm b graded gradedS s2 = Done (s3, is_rates, ended) /\
    if ended then s' = s3 /\ mem' = mem
    else exists s4, tx_phase cm mem b is_rates s3 = Done (s4, mem') /\ payout_phase b graded gradedS s4 = Done s'.
Proof.
  rewrite sync_block_phases. unfold sync_phases. intros H.
  done_step H s2 H2. done_step H g Hg. done_step H gS HgS. done_step H st Hst. destruct st as [[s3 ir] en].
  exists s2, g, gS, s3, ir, en. repeat split; try assumption.
  destruct en; [inversion H; auto|].
  done_step H st2 H4. destruct st2 as [s4 m4]. done_step H s5 H5. inversion H; subst. eauto.
Qed.

(* SyncBlock read through the choice, without the flags of [rate_phase] *)
Lemma sync_block_choice_inv cm mem b s s' mem' :
  sync_block c cm mem b s = Done (s', mem') ->
  exists g gS s2 s3,
    grade_opr c cm b = Done g /\ spr_verdict cm b = Done gS /\ adjust_phase cm (b_height b) s = Done s2 /\
    match g with Some v => insert_grade (b_height b) s2 v | None => Ok s2 end = Ok s3 /\
    match rate_choice (b_height b) g gS with
    | Some (l, ph) => exists s4 s5, insert_rates cm (b_height b) s3 l ph = Ok s4 /\
        tx_phase cm mem b true s4 = Done (s5, mem') /\ payout_phase b g gS s5 = Done s'
    | None => (s' = s3 /\ mem' = mem) \/
        exists s5, tx_phase cm mem b false s3 = Done (s5, mem') /\ payout_phase b g gS s5 = Done s'
    end.
Proof.
  intros H. apply sync_block_inv in H as (s2 & g & gS & s4 & ir & en & H2 & Hg & HgS & H3 & H).
  apply rate_phase_inv in H3 as (s3 & Hgr & Hc). exists g, gS, s2, s3. repeat (split; [assumption|]).
  destruct (rate_choice _ g gS) as [[l ph]|].
  - destruct Hc as (Hi & -> & ->). destruct H as (s5 & H). eauto.
  - destruct Hc as (-> & ->). destruct en; auto.
Qed.

(* the body of the loop: the two NullifyBurnAddress calls, SyncBlock, the sync mark *)
Definition pre_burn (cm : db) (b : block) : db :=
  let s := if b_height b =? c_V20DevRewardsHeightActivation c then nullify_burn c cm (b_height b) (b_ts b) cm else cm in
  if b_height b =? c_V202EnhanceActivation c then nullify_burn c cm (b_height b) (b_ts b) s else s.

Lemma step_block_inv cm mem b s' mem' :
  step_block c cm mem b = Done (s', mem') ->
  exists s1, sync_block c cm mem b (pre_burn cm b) = Done (s1, mem') /\ insert_synced s1 (b_height b) = Ok s'.
Proof.
  unfold step_block. cbv zeta. intros H. done_step H r Hr. destruct r as [s1 mem1].
  done_step H s2 H2. apply of_res_done in H2. inversion H; subst. eauto.
Qed.

(* SyncBlock at height h adds to the ledger writes the grading rows and the rate rows of h;
   the loop body then sets the sync mark. *)
Inductive bstep (K : Prop) (h : Z) : db -> db -> Prop :=
| b_ledger s s' : lstep K true true s s' -> bstep K h s s'
| b_grade s v s' : insert_grade h s v = Ok s' -> bstep K h s s'
| b_rates cm s a ph s' : insert_rates cm h s a ph = Ok s' -> bstep K h s s'.
Definition bwrites (K : Prop) (h : Z) : db -> db -> Prop := clos_refl_trans db (bstep K h).
Global Instance bwrites_po K h : PreOrder (bwrites K h).
Proof. split; [intros s; apply rt_refl|intros x y z; apply rt_trans]. Qed.

Lemma bwrites_pres {A} (π : db -> A) (R : A -> A -> Prop) `{!PreOrder R} K h :
  (forall s s', bstep K h s s' -> R (π s) (π s')) -> forall s s', bwrites K h s s' -> R (π s) (π s').
Proof. intros Hs s s' H. induction H; [auto|reflexivity|etransitivity; eassumption]. Qed.
Lemma bwrites_invariant (P : db -> Prop) K h :
  (forall s s', bstep K h s s' -> P s -> P s') -> forall s s', bwrites K h s s' -> P s -> P s'.
Proof. intros Hs s s' H. induction H; eauto. Qed.
Lemma lwrites_bwrites K rw ex h s s' : lwrites K rw ex s s' -> bwrites K h s s'.
Proof.
  intros H. apply (lwrites_le _ _ _ true true) in H; [|destruct rw, ex; reflexivity..]. revert s s' H.
  apply (lwrites_pres (fun s => s) (bwrites K h)). intros; apply rt_step, b_ledger; assumption.
Qed.

Lemma adjust_phase_writes cm h s s' : adjust_phase cm h s = Done s' -> lwrites (nonneg cm) false false s s'.
Proof.
  intros H. apply adjust_phase_inv in H as (s1 & H1 & H2). transitivity s1.
  - destruct (h =? c_V204EnhanceActivation c); [apply mint_tokens_writes; exact H1|inversion H1; reflexivity].
  - destruct (h =? c_V204BurnMintedTokenActivation c); [eapply nullify_minted_writes; exact H2|inversion H2; reflexivity].
Qed.

Lemma rate_phase_writes K cm b g gS s s' ir en : rate_phase cm b g gS s = Done (s', ir, en) -> bwrites K (b_height b) s s'.
Proof.
  intros H. apply rate_phase_inv in H as (s1 & H1 & H2). transitivity s1.
  - destruct g; [eapply rt_step, b_grade; exact H1|inversion H1; reflexivity].
  - destruct (rate_choice _ g gS) as [[l ph]|]; [destruct H2 as (H2 & _); eapply rt_step, b_rates; exact H2|destruct H2 as [-> _]; reflexivity].
Qed.

Lemma snapshot_phase_writes K h ts s s' rates1 : snapshot_phase h ts s = Done (s', rates1) -> lwrites K true false s s'.
Proof. intros H. apply snapshot_phase_inv in H as [_ [->|H]]; [reflexivity|eapply snapshot_payouts_writes; exact H]. Qed.

Lemma holding_phase_writes K cm mem h ir rates1 s s' mem' :
  holding_phase cm mem h ir rates1 s = Done (s', mem') -> lwrites K false true s s'.
Proof.
  destruct ir; intros H; [|inversion H; reflexivity]. apply holding_phase_rated in H as (s1 & H1 & H2 & _).
  transitivity s1; [destruct (_ && _); [eapply lwrites_step, l_bank; exact H1|inversion H1; reflexivity]|eapply apply_holding_writes; exact H2].
Qed.

Lemma tx_phase_writes K cm mem b ir s s' mem' : tx_phase cm mem b ir s = Done (s', mem') -> lwrites K true true s s'.
Proof.
  intros H. apply tx_phase_inv in H as [(_ & -> & _)|(sa & r1 & sc & Hs & Hh & Ht)]; [reflexivity|].
  transitivity sa; [eapply lwrites_le, snapshot_phase_writes; [reflexivity..|exact Hs]|].
  transitivity sc; [eapply lwrites_le, holding_phase_writes; [reflexivity..|exact Hh]|].
  destruct (b_tx b); [eapply apply_tx_block_writes; exact Ht|inversion Ht; reflexivity].
Qed.

Lemma payout_phase_writes K b g gS s s' : payout_phase b g gS s = Done s' -> lwrites K true false s s'.
Proof.
  intros H. apply payout_phase_inv in H as (s1 & s2 & s3 & H1 & H2 & H3 & H4). transitivity s1; [|transitivity s2; [|transitivity s3]].
  - destruct (_ <? _); [eapply apply_factoid_block_writes; exact H1|inversion H1; reflexivity].
  - destruct g; [eapply pay_winners_writes; exact H2|inversion H2; reflexivity].
  - destruct (_ <=? _); [|inversion H3; reflexivity]. destruct gS; [eapply pay_winners_writes; exact H3|inversion H3; reflexivity].
  - destruct (_ && _); [eapply developers_payouts_writes; exact H4|inversion H4; reflexivity].
Qed.

Lemma sync_block_writes cm mem b s s' mem' :
  sync_block c cm mem b s = Done (s', mem') -> bwrites (nonneg cm) (b_height b) s s'.
Proof.
  intros H. apply sync_block_inv in H as (s2 & g & gS & s3 & ir & en & H2 & _ & _ & H3 & H).
  transitivity s2; [eapply lwrites_bwrites, adjust_phase_writes; exact H2|]. transitivity s3; [eapply rate_phase_writes; exact H3|].
  destruct en; [destruct H as [-> _]; reflexivity|]. destruct H as (s4 & H4 & H5).
  transitivity s4; [eapply lwrites_bwrites, tx_phase_writes; exact H4|eapply lwrites_bwrites, payout_phase_writes; exact H5].
Qed.

Lemma pre_burn_writes cm b : lwrites (nonneg cm) true false cm (pre_burn cm b).
Proof. unfold pre_burn. destruct (_ =? _), (_ =? _); try reflexivity; try apply nullify_burn_writes. etransitivity; apply nullify_burn_writes. Qed.

Theorem step_block_writes cm mem b s' mem' :
  step_block c cm mem b = Done (s', mem') ->
  exists s1, bwrites (nonneg cm) (b_height b) cm s1 /\ insert_synced s1 (b_height b) = Ok s'.
Proof.
  intros H. apply step_block_inv in H as (s1 & H1 & H2). exists s1. split; [|exact H2].
  transitivity (pre_burn cm b); [eapply lwrites_bwrites, pre_burn_writes|eapply sync_block_writes; exact H1].
Qed.

Lemma step_block_invariant (P : db -> Prop) cm mem b s' mem' :
  (forall s s0, bstep (nonneg cm) (b_height b) s s0 -> P s -> P s0) ->
  (forall s s0, insert_synced s (b_height b) = Ok s0 -> P s -> P s0) ->
  step_block c cm mem b = Done (s', mem') -> P cm -> P s'.
Proof.
  intros Hb Hs H Hp. apply step_block_writes in H as (s1 & H1 & H2).
  eapply Hs; [exact H2|]. eapply bwrites_invariant; eassumption.
Qed.

Lemma bwrites_versions K h s s' : bwrites K h s s' -> versions s' = versions s.
Proof.
  intros H. symmetry. revert s s' H. apply (bwrites_pres versions eq). intros s s' [s0 s1 H|s0 v s1 H|cm0 s0 a ph s1 H].
  - exact (eq_sym (f_equal snd (lwrites_block_tables K true true s0 s1 (lwrites_step K true true s0 s1 H)))).
  - apply insert_grade_shape in H as (? & ? & ->). reflexivity.
  - apply insert_rates_shape in H as (_ & ? & -> & _). reflexivity.
Qed.

Lemma before_rate_rows_rates cm h (g : option verdict) s s2 s3 :
  adjust_phase cm h s = Done s2 -> match g with Some v => insert_grade h s2 v | None => Ok s2 end = Ok s3 ->
  rates s = rates s3.
Proof.
  intros H2 H3. transitivity (rates s2); [exact (lwrites_rates _ _ _ _ _ (adjust_phase_writes _ _ _ _ H2))|].
  destruct g; [exact (insert_grade_rates _ _ _ _ H3)|inversion H3; reflexivity].
Qed.

Lemma sync_block_no_choice_no_rates cm mem b s s' mem' :
  sync_block c cm mem b s = Done (s', mem') ->
  (forall g gS, grade_opr c cm b = Done g -> spr_verdict cm b = Done gS -> rate_choice (b_height b) g gS = None) ->
  rates s' = rates s.
Proof.
  intros H Hn. apply sync_block_choice_inv in H as (g & gS & s2 & s3 & Hg & HgS & H2 & H3 & H).
  rewrite (Hn g gS Hg HgS) in H. symmetry.
  transitivity (rates s3); [exact (before_rate_rows_rates _ _ _ _ _ _ H2 H3)|].
  destruct H as [[-> _]|(s5 & H5 & H6)]; [reflexivity|].
  transitivity (rates s5); [exact (lwrites_rates True _ _ _ _ (tx_phase_writes _ _ _ _ _ _ _ _ H5))|].
  exact (lwrites_rates True _ _ _ _ (payout_phase_writes _ _ _ _ _ _ H6)).
Qed.

Lemma bstep_nonneg K h s s' : bstep K h s s' -> nonneg s -> nonneg s'.
Proof.
  intros [? ? Hl|? ? ? Hg|? ? ? ? ? Hr] Hn; unfold nonneg.
  - eapply lwrites_nonneg; [apply lwrites_step|]; eassumption.
  - rewrite (bal_insert_grade _ _ _ _ Hg). exact Hn.
  - apply insert_rates_shape in Hr as (_ & ? & -> & _). exact Hn.
Qed.

Lemma nullify_burn_nonneg cm h ts s : nonneg cm -> nonneg s -> nonneg (nullify_burn c cm h ts s).
Proof. intros _. eapply lwrites_nonneg, nullify_burn_writes. Qed.

(* C03, first half: no block ever makes a balance negative *)
Theorem step_block_nonneg cm mem b s' mem' :
  nonneg cm -> step_block c cm mem b = Done (s', mem') -> nonneg s'.
Proof.
  intros Hc H. revert H Hc. apply step_block_invariant; [apply bstep_nonneg|].
  intros s s0 H Hn. unfold nonneg. rewrite (bal_insert_synced _ _ _ H). exact Hn.
Qed.

End WithCfg.
