(* Lemmas/ForksLemmas.v — the version lock refuses exactly the databases it should (C19). *)
From Coq Require Import ZArith List Bool Lia.
From Model Require Import Forks.
From Gen Require Consts.
Import ListNotations.
Open Scope Z_scope.

Definition extremum (le : Z -> Z -> Prop) (l : list Z) (o : option Z) : Prop :=
  match o with None => l = [] | Some m => In m l /\ forall x, In x l -> le m x end.

Lemma list_min_spec l : extremum Z.le l (list_min l).
Proof.
  induction l as [|y t IH]; cbn; [reflexivity|]. destruct (list_min t) as [z|]; cbn in IH.
  - destruct IH as [Hin Hle]. split; [destruct (Z.min_spec y z) as [[_ ->]|[_ ->]]; auto|].
    intros x [<-|Hx]; [|apply Hle in Hx]; lia.
  - subst t. split; [left; reflexivity|]. intros x [<-|[]]. lia.
Qed.

Lemma list_max_spec l : extremum Z.ge l (list_max l).
Proof.
  induction l as [|y t IH]; cbn; [reflexivity|]. destruct (list_max t) as [z|]; cbn in IH.
  - destruct IH as [Hin Hle]. split; [destruct (Z.max_spec y z) as [[_ ->]|[_ ->]]; auto|].
    intros x [<-|Hx]; [|apply Hle in Hx]; lia.
  - subst t. split; [left; reflexivity|]. intros x [<-|[]]. lia.
Qed.

Lemma coalesce_bound le l o d x : extremum le l o -> In x l -> le (coalesce o d) x.
Proof. destruct o; cbn; [intros [_ H]; apply H|intros -> []]. Qed.

Lemma coalesce_cases le l o d : extremum le l o -> (l = [] /\ coalesce o d = d) \/ In (coalesce o d) l.
Proof. destruct o; cbn; [intros [H _]; right; exact H|intros ->; left; split; reflexivity]. Qed.

Lemma highest_ge r h v : In (h, v) r -> h <= highest_synced r.
Proof.
  intros H. apply Z.ge_le. apply (coalesce_bound _ _ _ _ _ (list_max_spec _)).
  apply (in_map fst) in H. exact H.
Qed.

Lemma highest_cases r : (r = [] /\ highest_synced r = 0) \/ exists v, In (highest_synced r, v) r.
Proof.
  unfold highest_synced.
  destruct (coalesce_cases _ _ _ 0 (list_max_spec (map fst r))) as [[E1 E2]|H].
  - left. split; [|exact E2]. destruct r; [reflexivity|discriminate].
  - right. apply in_map_iff in H as [[h v] [E Hin]]. cbn in E. subst h. exists v. exact Hin.
Qed.

Lemma rows_from_In A r h v : In (h, v) (rows_from A r) <-> In (h, v) r /\ A <= h.
Proof.
  unfold rows_from. rewrite filter_In. cbn. rewrite Z.leb_le. tauto.
Qed.

(* COALESCE(MIN/MAX(version), d) ... WHERE height >= A, for either extremum *)
Lemma fetch_bound le A r o d h v : extremum le (map snd (rows_from A r)) o ->
  In (h, v) r -> A <= h -> le (coalesce o d) v.
Proof.
  intros Ho H Hle. apply (coalesce_bound _ _ _ _ _ Ho).
  apply in_map_iff. exists (h, v). split; [reflexivity|]. apply rows_from_In. tauto.
Qed.

Lemma fetch_cases le A r o d : extremum le (map snd (rows_from A r)) o ->
  ((forall h v, In (h, v) r -> h < A) /\ coalesce o d = d) \/
  (exists h, In (h, coalesce o d) r /\ A <= h).
Proof.
  intros Ho. destruct (coalesce_cases _ _ _ d Ho) as [[E1 E2]|H].
  - left. split; [|exact E2]. intros h v Hin.
    destruct (Z.lt_ge_cases h A) as [|Hge]; [assumption|].
    assert (Hf : In (h, v) (rows_from A r)) by (apply rows_from_In; tauto).
    apply (in_map snd) in Hf. rewrite E1 in Hf. destruct Hf.
  - right. apply in_map_iff in H as [[h v] [E Hin]]. cbn in E. rewrite <- E.
    apply rows_from_In in Hin. exists h. exact Hin.
Qed.

Lemma fetch_min_le A r h v : In (h, v) r -> A <= h -> fetch_min_version A r <= v.
Proof. exact (fetch_bound _ _ _ _ _ _ _ (list_min_spec _)). Qed.

Lemma fetch_max_ge A r h v : In (h, v) r -> A <= h -> v <= fetch_max_version A r.
Proof. intros H Hle. apply Z.ge_le. exact (fetch_bound _ _ _ _ _ _ _ (list_max_spec _) H Hle). Qed.

Lemma fetch_min_cases A r :
  ((forall h v, In (h, v) r -> h < A) /\ fetch_min_version A r = -1) \/
  (exists h, In (h, fetch_min_version A r) r /\ A <= h).
Proof. exact (fetch_cases _ _ _ _ _ (list_min_spec _)). Qed.

Lemma fetch_max_cases A r :
  ((forall h v, In (h, v) r -> h < A) /\ fetch_max_version A r = -1) \/
  (exists h, In (h, fetch_max_version A r) r /\ A <= h).
Proof. exact (fetch_cases _ _ _ _ _ (list_max_spec _)). Qed.

Lemma has_row_In h r : has_row h r = true <-> exists v, In (h, v) r.
Proof.
  unfold has_row. rewrite existsb_exists. split.
  - intros [[a b] [Hin E]]. cbn in E. apply Z.eqb_eq in E. subst a. exists b. exact Hin.
  - intros [v Hin]. exists (h, v). split; [exact Hin|]. cbn. apply Z.eqb_refl.
Qed.

Lemma no_row h r v : has_row h r = false -> ~ In (h, v) r.
Proof.
  intros E Hin. assert (has_row h r = true) by (apply has_row_In; exists v; exact Hin). congruence.
Qed.

Lemma insert_ignore_incl h v r x : In x r -> In x (insert_ignore h v r).
Proof. unfold insert_ignore, insert_row. destruct (has_row h r); cbn; auto. Qed.

Lemma insert_ignore_inv h v r x :
  In x (insert_ignore h v r) -> In x r \/ (x = (h, v) /\ has_row h r = false).
Proof.
  unfold insert_ignore, insert_row. destruct (has_row h r); cbn; [auto|].
  intros [<-|H]; auto.
Qed.

Lemma insert_ignore_new h v r : has_row h r = false -> In (h, v) (insert_ignore h v r).
Proof. unfold insert_ignore, insert_row. intros ->. left. reflexivity. Qed.

Section Backfill.
Variable reached : Z -> Z -> bool.

Lemma backfill_incl forks s r x : In x r -> In x (backfill reached forks s r).
Proof.
  revert r. induction forks as [|f t IH]; cbn; intros r H; [exact H|].
  apply IH. destruct (reached (fst f) s); [apply insert_ignore_incl|]; exact H.
Qed.

Lemma backfill_inv forks s r h v :
  In (h, v) (backfill reached forks s r) ->
  In (h, v) r \/ (v = -1 /\ reached h s = true /\ forall v', ~ In (h, v') r).
Proof.
  revert r. induction forks as [|[A m] t IH]; cbn; intros r H; [auto|].
  apply IH in H. destruct H as [H|(Hv & Hr & Hn)].
  - destruct (reached A s) eqn:E; [|auto].
    apply insert_ignore_inv in H as [H|[H1 H2]]; [auto|].
    inversion H1; subst. right. repeat split; auto. intros v'. apply no_row, H2.
  - right. repeat split; auto.
    intros v' Hv'. apply (Hn v'). destruct (reached A s); [apply insert_ignore_incl|]; exact Hv'.
Qed.

Lemma backfill_row forks s r A m :
  In (A, m) forks -> reached A s = true -> exists v, In (A, v) (backfill reached forks s r).
Proof.
  revert r. induction forks as [|[A' m'] t IH]; cbn; intros r Hin Hr; [destruct Hin|].
  destruct Hin as [E|Hin]; [|apply IH; assumption]. inversion E; subst. rewrite Hr.
  destruct (has_row A r) eqn:Er.
  - apply has_row_In in Er as [v Hv]. exists v. apply backfill_incl, insert_ignore_incl, Hv.
  - exists (-1). apply backfill_incl, insert_ignore_new, Er.
Qed.

Lemma backfill_new forks s r A m :
  In (A, m) forks -> reached A s = true -> has_row A r = false ->
  In (A, -1) (backfill reached forks s r).
Proof.
  intros Hin Hr Hn. destruct (backfill_row forks s r A m Hin Hr) as [v Hv].
  destruct (backfill_inv _ _ _ _ _ Hv) as [H|[-> _]]; [destruct (no_row _ _ _ Hn H)|exact Hv].
Qed.
End Backfill.

Lemma backfilled_incl reached forks d x : In x (versions d) -> In x (backfilled reached forks d).
Proof.
  unfold backfilled. intros H. destruct (synced d); [|exact H].
  destruct (_ <? _); [apply backfill_incl|]; exact H.
Qed.

(* compact form: an untracked build counts as sync version -1, which is what the back-fill
   records for it *)
Definition below_fork (forks : list (Z * Z)) (lg : synclog) : Prop :=
  exists A m b bld, In (A, m) forks /\ In (b, bld) lg /\ A <= b /\ bver bld < m.
Definition newer_build (cur : Z) (lg : synclog) : Prop :=
  exists b bld, In (b, bld) lg /\ cur < bver bld.

Lemma below_forkb_spec forks lg : below_forkb forks lg = true <-> below_fork forks lg.
Proof.
  unfold below_forkb, below_fork. rewrite existsb_exists. split.
  - intros [[A m] [Hf H]]. apply existsb_exists in H as [[b bld] [Hl H]]. cbn in H.
    apply andb_true_iff in H as [H1 H2]. apply Z.leb_le in H1. apply Z.ltb_lt in H2.
    exists A, m, b, bld. tauto.
  - intros (A & m & b & bld & Hf & Hl & H1 & H2). exists (A, m). split; [exact Hf|].
    apply existsb_exists. exists (b, bld). split; [exact Hl|]. cbn.
    apply andb_true_iff. split; [apply Z.leb_le|apply Z.ltb_lt]; assumption.
Qed.

Lemma newer_buildb_spec cur lg : newer_buildb cur lg = true <-> newer_build cur lg.
Proof.
  unfold newer_buildb, newer_build. rewrite existsb_exists. split.
  - intros [[b bld] [Hl H]]. cbn in H. apply Z.ltb_lt in H. exists b, bld. tauto.
  - intros (b & bld & Hl & H). exists (b, bld). split; [exact Hl|]. cbn. apply Z.ltb_lt. exact H.
Qed.

Lemma charb_spec forks cur lg : charb forks cur lg = true <-> below_fork forks lg \/ newer_build cur lg.
Proof. unfold charb. rewrite orb_true_iff, below_forkb_spec, newer_buildb_spec. tauto. Qed.

Definition forks_wf (base : Z) (forks : list (Z * Z)) : Prop :=
  forall A m, In (A, m) forks -> base < A \/ m <= -1.

Lemma forks_wfb_spec base forks : forks_wfb base forks = true <-> forks_wf base forks.
Proof.
  unfold forks_wfb, forks_wf. rewrite forallb_forall. split.
  - intros H A m Hin. specialize (H _ Hin). cbn in H. apply orb_true_iff in H as [H|H];
      [left; apply Z.ltb_lt|right; apply Z.leb_le]; exact H.
  - intros H [A m] Hin. cbn. apply orb_true_iff. destruct (H _ _ Hin);
      [left; apply Z.ltb_lt|right; apply Z.leb_le]; assumption.
Qed.

(* what the rows of a table may be: written by a tracked build that synced the height, or a
   back-fill -1 at a height an untracked build synced or at/below the base height *)
Definition rows_explained (base : Z) (r : rows) (lg : synclog) : Prop :=
  forall h v, In (h, v) r ->
    In (h, Tracked v) lg \/ (v = -1 /\ (In (h, Untracked) lg \/ h <= base)).

Lemma forallb_false {A} (f : A -> bool) l : forallb f l = false -> exists x, In x l /\ f x = false.
Proof.
  induction l as [|x t IH]; cbn; [discriminate|].
  destruct (f x) eqn:E; cbn.
  - intros H. destruct (IH H) as [y [Hy Hf]]. exists y. auto.
  - intros _. exists x. auto.
Qed.

Lemma verdict_false_sound base forks cur r lg :
  0 <= base -> forks_wf base forks -> -1 <= cur -> rows_explained base r lg ->
  verdict forks cur r = false -> below_fork forks lg \/ newer_build cur lg.
Proof.
  intros Hb Hwf Hcur Hex Hv. unfold verdict, forks_ok, no_downgrade in Hv. apply andb_false_iff in Hv as [Hv|Hv].
  - left. apply forallb_false in Hv as [[A m] [Hin Hf]]. cbn in Hf.
    destruct (Z.leb_spec A (highest_synced r)) as [Htop|]; [|discriminate].
    apply negb_false_iff in Hf. apply Z.ltb_lt in Hf.
    destruct (fetch_min_cases A r) as [[Hnone Hm1]|[h [Hrow Hle]]].
    + (* no row at or above A although A <= top: the table is empty and A <= 0 <= base *)
      rewrite Hm1 in Hf.
      destruct (highest_cases r) as [[-> Htop0]|[v Hrow]].
      * rewrite Htop0 in Htop. destruct (Hwf _ _ Hin); lia.
      * specialize (Hnone _ _ Hrow). lia.
    + destruct (Hex _ _ Hrow) as [Ht|[Hm1 [Hu|Hlow]]].
      * exists A, m, h, (Tracked (fetch_min_version A r)). cbn. tauto.
      * exists A, m, h, Untracked. cbn. repeat split; auto. lia.
      * destruct (Hwf _ _ Hin); lia.
  - right. apply negb_false_iff in Hv. apply Z.ltb_lt in Hv.
    destruct (fetch_max_cases 0 r) as [[_ Hm1]|[h [Hrow Hle]]]; [lia|].
    destruct (Hex _ _ Hrow) as [Ht|[Hm1 _]]; [|lia].
    exists h, (Tracked (fetch_max_version 0 r)). cbn. tauto.
Qed.

Lemma verdict_fork_row forks cur r A m h v :
  In (A, m) forks -> In (h, v) r -> A <= h -> v < m -> verdict forks cur r = false.
Proof.
  intros Hin Hrow Hle Hlt. unfold verdict, forks_ok. apply andb_false_iff. left.
  destruct (forallb _ forks) eqn:E; [|reflexivity].
  rewrite forallb_forall in E. specialize (E _ Hin). cbn in E.
  pose proof (highest_ge _ _ _ Hrow) as Htop.
  destruct (Z.leb_spec A (highest_synced r)); [|lia].
  apply negb_true_iff in E. apply Z.ltb_ge in E.
  pose proof (fetch_min_le A _ _ _ Hrow Hle). lia.
Qed.

Lemma verdict_newer_row forks cur r h v :
  In (h, v) r -> 0 <= h -> cur < v -> verdict forks cur r = false.
Proof.
  intros Hrow Hle Hlt. unfold verdict, no_downgrade. apply andb_false_iff. right.
  apply negb_false_iff. apply Z.ltb_lt.
  pose proof (fetch_max_ge 0 _ _ _ Hrow Hle). lia.
Qed.

Definition inv (base : Z) (st : state) : Prop :=
  (match synced (fst st) with
   | None => snd st = []
   | Some s => base < s /\ forall h, (exists b, In (h, b) (snd st)) <-> base < h <= s
   end) /\
  (forall h v, In (h, Tracked v) (snd st) -> In (h, v) (versions (fst st))) /\
  rows_explained base (versions (fst st)) (snd st).

Lemma inv_fresh base : inv base (fresh, []).
Proof.
  split; [reflexivity|]. split; [intros h v []|intros h v []].
Qed.

Lemma inv_next base d lg : inv base (d, lg) ->
  base < next_height base d /\
  forall h, (exists b, In (h, b) lg) <-> base < h < next_height base d.
Proof.
  intros (I1 & _). unfold next_height. cbn in I1. destruct (synced d) as [s|].
  - destruct I1 as [Hs Hh]. split; [lia|]. intros h. rewrite Hh. lia.
  - subst lg. split; [lia|]. intros h. split; [intros [b []]|lia].
Qed.

Lemma sync_block_keeps_inv base b st st' : inv base st -> sync_block base b st = Some st' -> inv base st'.
Proof.
  destruct st as [d lg]. intros Hinv. destruct (inv_next _ _ _ Hinv) as [Hn Hh].
  destruct Hinv as (_ & I3 & I4). unfold sync_block. cbn [fst snd] in *.
  set (nh := next_height base d) in *.
  assert (I1' : base < nh /\ forall h, (exists b0, In (h, b0) ((nh, b) :: lg)) <-> base < h <= nh).
  { split; [exact Hn|]. intros h. split.
    - intros [b0 [E|Hin]]; [inversion E; lia|]. assert (base < h < nh) by (apply Hh; eauto). lia.
    - intros Hr. destruct (Z.eq_dec h nh) as [->|Hne]; [exists b; left; reflexivity|].
      destruct (proj2 (Hh h) ltac:(lia)) as [b0 Hb0]. exists b0. right. exact Hb0. }
  assert (I4' : rows_explained base (versions d) ((nh, b) :: lg)).
  { intros h v Hr. destruct (I4 h v Hr) as [T|[E [U|B]]]; cbn; auto. }
  destruct b as [|v].
  - intros [= <-]. split; [exact I1'|]. split; [|exact I4'].
    intros h v [E|Hin]; [discriminate|auto].
  - unfold insert_row. destruct (has_row _ _); [discriminate|].
    intros [= <-]. split; [exact I1'|]. split.
    + intros h v' [E|Hin]; [inversion E; subst; left; reflexivity|right; auto].
    + intros h v' [E|Hin]; [inversion E; subst; left; left; reflexivity|exact (I4' h v' Hin)].
Qed.

Lemma sync_blocks_keep_inv base b n st : inv base st -> inv base (sync_blocks base b n st).
Proof.
  revert st. induction n as [|n IH]; cbn; intros st H; [exact H|].
  destruct (sync_block base b st) as [st'|] eqn:E; [|exact H].
  apply IH. eapply sync_block_keeps_inv; eassumption.
Qed.

Lemma check_inv base forks cur d lg :
  inv base (d, lg) -> inv base (snd (check_hard_forks forks cur d), lg).
Proof.
  intros (I1 & I3 & I4). cbn in *. unfold inv; cbn. split; [exact I1|]. split.
  - intros h v Hin. apply backfilled_incl. auto.
  - unfold backfilled. destruct (synced d) as [s|]; [|exact I4].
    destruct (_ <? s); [|exact I4].
    intros h v Hin. apply backfill_inv in Hin as [Hin|(Hv & Hre & Hn)]; [auto|].
    right. split; [exact Hv|]. apply Z.leb_le in Hre.
    destruct (Z.le_gt_cases h base) as [|Hgt]; [right; assumption|left].
    (* h is a logged height without a row: no tracked build synced it *)
    destruct I1 as [_ Hh]. destruct (proj2 (Hh h) ltac:(lia)) as [[|v'] Hb]; [exact Hb|].
    destruct (Hn _ (I3 _ _ Hb)).
Qed.

Lemma run_session_keeps_inv forks base st s : inv base st -> inv base (run_session forks base st s).
Proof.
  destruct st as [d lg], s as [[|v] n]; unfold run_session, run_session_gen; cbn; intros H.
  - apply sync_blocks_keep_inv. exact H.
  - pose proof (check_inv base forks v d lg H) as H1. cbn in H1.
    destruct (verdict _ _ _); [apply sync_blocks_keep_inv|]; exact H1.
Qed.

Lemma fold_run_keeps_inv forks base h st : inv base st -> inv base (fold_left (run_session forks base) h st).
Proof.
  revert st. induction h as [|s t IH]; cbn; intros st H; [exact H|].
  apply IH. apply run_session_keeps_inv. exact H.
Qed.

Lemma run_history_keeps_inv forks base h : inv base (run_history forks base h).
Proof. apply fold_run_keeps_inv. apply inv_fresh. Qed.

Lemma check_sound forks base cur d lg :
  0 <= base -> forks_wf base forks -> -1 <= cur -> inv base (d, lg) ->
  fst (check_hard_forks forks cur d) = false -> below_fork forks lg \/ newer_build cur lg.
Proof.
  intros Hb Hwf Hcur Hinv Hv. destruct (check_inv base forks cur d lg Hinv) as (_ & _ & I4).
  exact (verdict_false_sound base forks cur _ lg Hb Hwf Hcur I4 Hv).
Qed.

Theorem refuses_sound forks base h cur :
  0 <= base -> forks_wf base forks -> -1 <= cur ->
  refuses forks base h cur = true ->
  below_fork forks (synced_log forks base h) \/ newer_build cur (synced_log forks base h).
Proof.
  intros Hb Hwf Hcur Href. apply negb_true_iff in Href. unfold accepts, synced_log in *.
  pose proof (run_history_keeps_inv forks base h) as Hinv. destruct (run_history forks base h) as [d lg].
  exact (check_sound forks base cur d lg Hb Hwf Hcur Hinv Href).
Qed.

(* once a tracked build has started on the database, every fork height at or below a height
   that an untracked build synced carries a -1 row *)
Definition legacy_marked (forks : list (Z * Z)) (st : state) : Prop :=
  forall h A m, In (h, Untracked) (snd st) -> In (A, m) forks -> A <= h ->
    In (A, -1) (versions (fst st)).

Lemma check_marks forks base cur d lg :
  0 <= base -> inv base (d, lg) ->
  versions d = [] \/ legacy_marked forks (d, lg) ->
  legacy_marked forks (snd (check_hard_forks forks cur d), lg).
Proof.
  intros Hb I [Hnil|HJ]; unfold legacy_marked; cbn in *.
  - intros h A m Hu Hf Hle. unfold backfilled. rewrite Hnil.
    assert (Hh : base < h < next_height base d) by (apply (inv_next _ _ _ I); eauto).
    unfold next_height in Hh. destruct (synced d) as [s|]; [|lia].
    change (lowest_synced []) with 0. destruct (Z.ltb_spec 0 s); [|lia].
    eapply backfill_new; [exact Hf| |reflexivity]. apply Z.leb_le. lia.
  - intros h A m Hu Hf Hle. apply backfilled_incl. eapply HJ; eassumption.
Qed.

Lemma sync_blocks_tracked_marked forks base v n st :
  legacy_marked forks st -> legacy_marked forks (sync_blocks base (Tracked v) n st).
Proof.
  revert st. induction n as [|n IH]; cbn; intros st H; [exact H|].
  unfold insert_row. destruct (has_row _ _); [exact H|]. apply IH.
  unfold legacy_marked in *. cbn. intros h A m [E|Hu] Hf Hle; [discriminate|].
  right. eapply H; eassumption.
Qed.

Lemma sync_blocks_untracked_nil base n st :
  versions (fst st) = [] -> versions (fst (sync_blocks base Untracked n st)) = [].
Proof.
  revert st. induction n as [|n IH]; cbn; intros st H; [exact H|]. apply IH. exact H.
Qed.

Lemma run_session_tracked_marked forks base st v n :
  0 <= base -> inv base st ->
  versions (fst st) = [] \/ legacy_marked forks st ->
  legacy_marked forks (run_session forks base st (Tracked v, n)).
Proof.
  destruct st as [d lg]. intros Hb Hinv H.
  pose proof (check_marks forks base v d lg Hb Hinv H) as H1.
  unfold run_session, run_session_gen. cbn in *.
  destruct (verdict _ _ _); [apply sync_blocks_tracked_marked|]; exact H1.
Qed.

Lemma phase2 forks base t st :
  0 <= base -> no_untracked_sync t = true -> inv base st -> legacy_marked forks st ->
  legacy_marked forks (fold_left (run_session forks base) t st).
Proof.
  intros Hb. revert st. induction t as [|s t IH]; intros st Hn Hinv HJ; [exact HJ|].
  cbn [fold_left]. unfold no_untracked_sync in Hn. cbn [forallb] in Hn.
  apply andb_true_iff in Hn as [Hs Ht].
  apply IH; [exact Ht|apply run_session_keeps_inv; exact Hinv|].
  destruct s as [[|v] n].
  - destruct n; [exact HJ|discriminate].
  - apply run_session_tracked_marked; auto.
Qed.

Lemma phase1 forks base h st :
  0 <= base -> untracked_first h = true -> inv base st -> versions (fst st) = [] ->
  versions (fst (fold_left (run_session forks base) h st)) = [] \/
  legacy_marked forks (fold_left (run_session forks base) h st).
Proof.
  intros Hb. revert st. induction h as [|s t IH]; intros st Hu Hinv Hnil; [left; exact Hnil|].
  cbn [fold_left]. destruct s as [[|v] n]; cbn [untracked_first] in Hu.
  - apply IH; [exact Hu|apply run_session_keeps_inv; exact Hinv|].
    unfold run_session, run_session_gen. cbn [fst snd].
    apply sync_blocks_untracked_nil. exact Hnil.
  - right. apply phase2; [exact Hb|exact Hu|apply run_session_keeps_inv; exact Hinv|].
    apply run_session_tracked_marked; auto.
Qed.

Lemma check_complete forks base cur d lg :
  0 <= base -> -1 <= cur -> inv base (d, lg) ->
  versions d = [] \/ legacy_marked forks (d, lg) ->
  below_fork forks lg \/ newer_build cur lg -> fst (check_hard_forks forks cur d) = false.
Proof.
  intros Hb Hcur Hinv Hph Hchar.
  pose proof (check_marks forks base cur d lg Hb Hinv Hph) as HJ.
  pose proof Hinv as (_ & I3 & _). unfold legacy_marked in HJ. cbn in *.
  destruct Hchar as [(A & m & b & [|v] & Hf & Hl & Hle & Hlt)|(b & [|v] & Hl & Hlt)]; cbn in Hlt.
  - eapply verdict_fork_row with (h := A) (v := -1); [exact Hf| |lia|exact Hlt].
    eapply HJ; eassumption.
  - eapply verdict_fork_row; [exact Hf| |exact Hle|exact Hlt].
    apply backfilled_incl. apply I3. exact Hl.
  - lia.
  - eapply verdict_newer_row; [apply backfilled_incl; apply I3; exact Hl| |exact Hlt].
    assert (base < b < next_height base d) by (apply (inv_next _ _ _ Hinv); eauto). lia.
Qed.

Theorem refuses_complete forks base h cur :
  0 <= base -> -1 <= cur -> untracked_first h = true ->
  below_fork forks (synced_log forks base h) \/ newer_build cur (synced_log forks base h) ->
  refuses forks base h cur = true.
Proof.
  intros Hb Hcur Hu Hchar. apply negb_true_iff. unfold accepts, synced_log in *.
  pose proof (run_history_keeps_inv forks base h) as Hinv.
  pose proof (phase1 forks base h (fresh, []) Hb Hu (inv_fresh base) eq_refl) as Hph.
  change (fold_left _ h _) with (run_history forks base h) in Hph. destruct (run_history forks base h) as [d lg].
  exact (check_complete forks base cur d lg Hb Hcur Hinv Hph Hchar).
Qed.

(* literal form: "synced by an untracked build, or by Tracked v with v < m".  The conjunct
   0 <= m is what the table entry {0, -1} ("any version >= -1 is sufficient") means for an
   untracked build, which the code records as -1: see Refuted/C19.v for the statement
   without it. *)
Definition below_fork_lit (forks : list (Z * Z)) (lg : synclog) : Prop :=
  exists A m b, In (A, m) forks /\ A <= b /\
    ((In (b, Untracked) lg /\ 0 <= m) \/ (exists v, In (b, Tracked v) lg /\ v < m)).
Definition newer_build_lit (cur : Z) (lg : synclog) : Prop :=
  exists b v, In (b, Tracked v) lg /\ cur < v.

Lemma below_fork_lit_iff forks lg : below_fork forks lg <-> below_fork_lit forks lg.
Proof.
  unfold below_fork, below_fork_lit. split.
  - intros (A & m & b & [|v] & Hf & Hl & Hle & Hlt); cbn in Hlt; exists A, m, b; repeat split; auto.
    + left. split; [exact Hl|lia].
    + right. exists v. auto.
  - intros (A & m & b & Hf & Hle & [[Hl Hm]|[v [Hl Hlt]]]).
    + exists A, m, b, Untracked. cbn. repeat split; auto. lia.
    + exists A, m, b, (Tracked v). cbn. auto.
Qed.

Lemma newer_build_lit_iff cur lg : -1 <= cur -> (newer_build cur lg <-> newer_build_lit cur lg).
Proof.
  intros Hc. unfold newer_build, newer_build_lit. split.
  - intros (b & [|v] & Hl & Hlt); cbn in Hlt; [lia|]. exists b, v. auto.
  - intros (b & v & Hl & Hlt). exists b, (Tracked v). auto.
Qed.

Lemma char_lit_iff forks cur lg : -1 <= cur ->
  (below_fork forks lg \/ newer_build cur lg <-> below_fork_lit forks lg \/ newer_build_lit cur lg).
Proof. intros Hc. rewrite below_fork_lit_iff, (newer_build_lit_iff _ _ Hc). reflexivity. Qed.

Theorem version_lock_iff forks base h cur :
  0 <= base ->
  (forall A m, In (A, m) forks -> base < A \/ m <= -1) ->
  -1 <= cur ->
  untracked_first h = true ->
  (refuses forks base h cur = true <->
   (exists A m b, In (A, m) forks /\ A <= b /\
      ((In (b, Untracked) (synced_log forks base h) /\ 0 <= m) \/
       (exists v, In (b, Tracked v) (synced_log forks base h) /\ v < m)))
   \/ (exists b v, In (b, Tracked v) (synced_log forks base h) /\ cur < v)).
Proof.
  intros Hb Hwf Hcur Hu. refine (iff_trans _ (char_lit_iff forks cur _ Hcur)). split.
  - apply refuses_sound; assumption.
  - apply refuses_complete; assumption.
Qed.

(* the "only if" half needs no hypothesis on the order of the sessions *)
Theorem version_lock_refusal_justified forks base h cur :
  0 <= base -> forks_wf base forks -> -1 <= cur ->
  refuses forks base h cur = true ->
  below_fork_lit forks (synced_log forks base h) \/ newer_build_lit cur (synced_log forks base h).
Proof.
  intros Hb Hwf Hcur Hr. apply (char_lit_iff forks cur _ Hcur). apply refuses_sound; assumption.
Qed.

(* "Databases synced entirely with adequate builds are always accepted": every history *)
Theorem adequate_always_accepted forks base h cur :
  0 <= base -> forks_wf base forks -> -1 <= cur ->
  (forall b bld, In (b, bld) (synced_log forks base h) ->
     bver bld <= cur /\ forall A m, In (A, m) forks -> A <= b -> m <= bver bld) ->
  accepts forks base h cur = true.
Proof.
  intros Hb Hwf Hcur Had.
  destruct (accepts forks base h cur) eqn:E; [reflexivity|exfalso].
  assert (Hr : refuses forks base h cur = true) by (unfold refuses; rewrite E; reflexivity).
  destruct (refuses_sound forks base h cur Hb Hwf Hcur Hr)
    as [(A & m & b & bld & Hf & Hl & Hle & Hlt)|(b & bld & Hl & Hlt)].
  - destruct (Had _ _ Hl) as [_ H]. specialize (H _ _ Hf Hle). lia.
  - destruct (Had _ _ Hl) as [H _]. lia.
Qed.

(* a block commit never hits the PRIMARY KEY of pn_sync_version from a reachable state: the
   None branch of sync_block is dead, a session of n blocks syncs n blocks *)
Lemma sync_block_total base b st : inv base st -> exists st', sync_block base b st = Some st'.
Proof.
  destruct st as [d lg]. intros I. unfold sync_block. cbn.
  destruct b as [|v]; [eauto|].
  unfold insert_row. destruct (has_row _ (versions d)) eqn:E; [exfalso|eauto].
  apply has_row_In in E as [v' Hin]. destruct (inv_next _ _ _ I) as [Hn Hh].
  assert (Hl : forall b, ~ In (next_height base d, b) lg).
  { intros b Hb. assert (base < next_height base d < next_height base d) by (apply Hh; eauto). lia. }
  destruct I as (_ & _ & I4). destruct (I4 _ _ Hin) as [H|[_ [H|H]]]; [destruct (Hl _ H)..|cbn in *; lia].
Qed.

Lemma sync_blocks_log base b n st : inv base st ->
  length (snd (sync_blocks base b n st)) = (n + length (snd st))%nat /\
  (forall e, In e (snd (sync_blocks base b n st)) -> In e (snd st) \/ snd e = b).
Proof.
  revert st. induction n as [|n IH]; intros st Hinv; cbn [sync_blocks]; [split; auto|].
  destruct (sync_block_total base b st Hinv) as [st' E]. rewrite E.
  pose proof (sync_block_keeps_inv _ _ _ _ Hinv E) as Hinv'.
  destruct (IH st' Hinv') as [Hlen Hin].
  assert (Hs : snd st' = (next_height base (fst st), b) :: snd st).
  { unfold sync_block in E. destruct b; [inversion E; reflexivity|].
    destruct (insert_row _ _ _); inversion E; reflexivity. }
  split.
  - rewrite Hlen, Hs. cbn. lia.
  - intros e He. apply Hin in He as [He|He]; [|auto]. rewrite Hs in He.
    destruct He as [<-|He]; [right; reflexivity|left; exact He].
Qed.

(* with `bs.Synced > event.ActivationHeight` a legacy database synced exactly to a fork
   height — the fork block itself applied by the untracked build — was accepted *)
Lemma legacy_check_accepted_fork_height :
  exists forks base h cur,
    0 <= base /\ forks_wf base forks /\ -1 <= cur /\ untracked_first h = true /\
    below_fork_lit forks (snd (run_history_legacy forks base h)) /\
    accepts_legacy forks base h cur = true /\
    accepts forks base h cur = false.
Proof.
  exists [(0, -1); (12, 1)], 10, [(Untracked, 2%nat)], 1.   (* blocks 11, 12 *)
  split; [lia|]. split; [apply forks_wfb_spec; vm_compute; reflexivity|].
  split; [lia|]. split; [reflexivity|]. split.
  - exists 12, 1, 12. split; [right; left; reflexivity|]. split; [lia|].
    left. split; [vm_compute; left; reflexivity|lia].
  - split; vm_compute; reflexivity.
Qed.

(* the hypotheses hold of the constants regenerated from the repository on every run
   (Gen/Consts.v: pegnet.Hardforks, config.PegnetActivation, pegnet.PegnetdSyncVersion) *)
Lemma repo_table_wellformed :
  0 <= Consts.PegnetActivation /\
  forks_wfb Consts.PegnetActivation Consts.hardforks = true /\
  -1 <= Consts.PegnetdSyncVersion.
Proof. split; [|split]; vm_compute; first [reflexivity | discriminate]. Qed.

Theorem version_lock_iff_repo_table h :
  untracked_first h = true ->
  let lg := synced_log Consts.hardforks Consts.PegnetActivation h in
  (refuses Consts.hardforks Consts.PegnetActivation h Consts.PegnetdSyncVersion = true <->
   below_fork_lit Consts.hardforks lg \/ newer_build_lit Consts.PegnetdSyncVersion lg).
Proof.
  intros Hu lg. destruct repo_table_wellformed as (Hb & Hwf & Hc).
  apply version_lock_iff; [exact Hb|apply forks_wfb_spec; exact Hwf|exact Hc|exact Hu].
Qed.
