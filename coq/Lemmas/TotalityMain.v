(* Lemmas/TotalityMain.v — C08 (sync liveness): the statements about the transaction chain on states
   reached by replay from the fresh database. *)
From Model Require Import Block Obs.
From Lemmas Require Import DbLemmas LedgerLemmas ChainLemmas
     TotalityLemmas TotalityHolding TotalityInvariant TotalityRange TotalityCodes.
Open Scope Z_scope.
Open Scope list_scope.

(* both state hypotheses hold in every state reached from the fresh database *)
Theorem reachable_state_ok c bs s m :
  replay c genesis empty_cache bs = Done (s, m) -> hist_closed s /\ bal_room s 0.
Proof. intros H. split; [eapply replay_closed; exact H|eapply replay_range; exact H]. Qed.

(* the room hypothesis over a state whose cells are known to be in range: only the upper bound is left *)
Lemma bal_room_from_range s n :
  bal_room s 0 -> (forall a t, get_bal (bal s) a t + n <= max_int64) -> bal_room s n.
Proof. intros H0 Hn a t. split; [apply H0|apply Hn]. Qed.

(* C08, transaction chain: on any reachable state, a transaction block of arbitrary entries — garbage,
   repeated, conflicting, overdrawing — is applied, provided decoded batches are what the decoder and the
   signature check let through ([entry_wf]) and no balance cell is within the block's total transfers of
   2^63 ([block_credit]) *)
Theorem C08_tx_block_applies c bs s m h es :
  replay c genesis empty_cache bs = Done (s, m) ->
  Forall (fun e => entry_wf c h e = true) es ->
  (forall a t, get_bal (bal s) a t + block_credit c h es <= max_int64) ->
  exists s', apply_tx_block c h s es = Ok s' /\ hist_closed s' /\ bal_room s' 0.
Proof.
  intros Hr Hwf Hroom. destruct (reachable_state_ok c bs s m Hr) as [Hc H0].
  apply apply_tx_block_total; auto; [lia|].
  apply bal_room_from_range; [exact H0|]. intros a t. specialize (Hroom a t). lia.
Qed.

(* the same with no hypothesis at all about the entries: never a panic, never a uniqueness violation, only
   the four codes that [entry_wf] and the room exclude *)
Theorem C08_tx_block_failure_codes c bs s m h es :
  replay c genesis empty_cache bs = Done (s, m) ->
  fails_within [E_UNCAUGHT; E_BADCOLUMN; E_SQLARG; E_OVERFLOW_CELL] (apply_tx_block c h s es).
Proof. intros Hr. apply apply_tx_block_failures. eapply replay_closed; exact Hr. Qed.

Print Assumptions reachable_state_ok.
Print Assumptions C08_tx_block_applies.
Print Assumptions C08_tx_block_failure_codes.
Print Assumptions apply_holding_total.
Print Assumptions apply_holding_total_outside_bank_era.
Print Assumptions holding_then_block_total.
