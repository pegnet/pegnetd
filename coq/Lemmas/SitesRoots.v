(* Obligations over the regenerated tables of Gen/Sites.v, by [vm_compute] over the whole (finite) table.
   One file per property, so that a table that no longer matches breaks only the property it belongs to. *)
From Coq Require Import List Bool.

From Model Require Import SitesSpec.
Import ListNotations.
Open Scope string_scope.

Lemma sync_roots_expected : check_sync_roots = true.
Proof. vm_compute; reflexivity. Qed.

Lemma mem_In s l : mem s l = true <-> In s l.
Proof.
  unfold mem. rewrite existsb_exists. split; [|intros I; exists s; split; [exact I|apply String.eqb_refl]].
  intros (x & I & E). apply String.eqb_eq in E. subst. exact I.
Qed.

Lemma mem2_In a l : mem2 a l = true <-> In a l.
Proof.
  unfold mem2, eqb2. rewrite existsb_exists. split; [|intros I; exists a; rewrite !String.eqb_refl; auto].
  intros ([x y] & I & E). apply andb_true_iff in E as [E1 E2]. apply String.eqb_eq in E1, E2.
  destruct a. cbn [fst snd] in *. subst. exact I.
Qed.

Lemma mem3_In a l : mem3 a l = true <-> In a l.
Proof.
  unfold mem3. rewrite existsb_exists. destruct a as [[a1 a2] a3].
  split; [|intros I; exists (a1, a2, a3); cbn [eqb3]; rewrite !String.eqb_refl; auto].
  intros ([[x y] z] & I & E). cbn [eqb3] in E. apply andb_true_iff in E as [E E3].
  apply andb_true_iff in E as [E1 E2]. apply String.eqb_eq in E1, E2, E3. subst. exact I.
Qed.
