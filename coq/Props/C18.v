(* Props/C18.v — API isolation: reads cannot disturb sync and see only committed blocks.
   Only statements: theorems closed by [exact] (or a line or two), examples by evaluation; proofs live in Lemmas/. *)
From Model Require Import Examples Sync SitesSpec.
From Lemmas Require Import SyncLemmas RestartLemmas SitesC18.
From Gen Require Import Consts Sites.
From Coq Require Import String.
Open Scope list_scope.
Open Scope Z_scope.

(* API requests are transitions of the loop model that read the committed database and may replace
   the rate-average cache by the averages of a height that is already rated ([t_api]): interleaved
   anywhere, any number of times, with block application, failures, crashes and restarts, they
   never change the database the daemon computes. *)
Theorem C18_api_requests_cannot_change_the_ledger : forall c chain h0 n todo,
  0 < h0 -> heights_from h0 chain ->
  reach c ({| n_db := genesis; n_mem := empty_cache |}, chain) (n, todo) ->
  exists done_ m, chain = done_ ++ todo /\ replay c genesis empty_cache done_ = Done (n_db n, m).
Proof. exact loop_consistent. Qed.
Print Assumptions C18_api_requests_cannot_change_the_ledger.

(* what the handlers can do, from the source (regenerated on every run): no SQL statement reachable
   from an API handler writes, every one of them runs on the connection pool (so it sees committed
   blocks only: the block's writes are on its own sql.Tx) *)
Theorem C18_api_never_writes : forall r, In r api_effective_sql -> eff_rw r = "R"%string.
Proof. exact api_never_writes_forall. Qed.
Theorem C18_api_reads_committed_state_only : forall r, In r api_effective_sql -> eff_handle r = "pool"%string.
Proof. exact api_reads_pool_only_forall. Qed.
Print Assumptions C18_api_reads_committed_state_only.

(* the only daemon fields shared between the two goroutine roots are the sync height and the three
   fields of the average cache; after the repairs every conflicting pair of accesses holds a common
   mutex or goes through sync/atomic *)
Theorem C18_shared_fields_are_the_reviewed_ones : check_sync_written_fields = true /\ check_no_other_shared_writes = true.
Proof. exact (conj shared_fields_expected shared_fields_no_other_writes). Qed.
Theorem C18_locking_discipline : check_conflicting_fields = true.
Proof. exact shared_fields_conflicts. Qed.
Print Assumptions C18_locking_discipline.

Example C18_example : conflicting_fields = [] /\ (exists r, In r api_effective_sql).
Proof. split; [vm_compute; reflexivity|]. eexists. unfold api_effective_sql. left. reflexivity. Qed.
