(* Props/C11.v — Grading rewards and FCT burns are issued exactly as decided, once.
   Only statements: theorems closed by [exact] (or a line or two), examples by evaluation; proofs live in Lemmas/. *)
From Model Require Import Examples.
From Lemmas Require Import RewardLemmas NoWinners SprFilter.
From Gen Require Import Consts.
From Coq Require Import String.
Open Scope Z_scope.

(* The reward step pays each winner of the verdict its Payout() at its payout address, in PEG, and
   changes no other cell: after it every balance is the old one plus what the winners naming that
   address are owed (a record whose address does not decode is skipped).  For every verdict. *)
Theorem C11_winners_paid_exactly : forall ts ws s s' a t,
  pay_winners s ts ws = Ok s' ->
  get_bal (bal s') a t = get_bal (bal s) a t + (if t =? PTickerPEG then owed ws a else 0).
Proof. exact pay_winners_exact. Qed.
Print Assumptions C11_winners_paid_exactly.

(* Before 2.0 each valid burn credits exactly its input amount of pFCT to its input address and
   nothing else in a factoid block credits anything. *)
Theorem C11_burns_credited_exactly : forall h fs s s' a t,
  apply_factoid_block h s fs = Ok s' ->
  get_bal (bal s') a t = get_bal (bal s) a t + (if t =? PTickerFCT then burned_by fs a else 0).
Proof. exact factoid_block_exact. Qed.
Print Assumptions C11_burns_credited_exactly.

(* what counts as a burn: exactly one FCT input, no FCT output, one EC output of amount 0 to the burn RCD *)
Theorem C11_burn_shape : forall f a v,
  is_burn f = Some (a, v) -> f_inputs f = [(a, v)] /\ f_outputs f = [] /\ f_ecoutputs f = [(BurnRCD, 0)] /\ 0 <= v.
Proof. exact is_burn_shape. Qed.
Print Assumptions C11_burn_shape.

(* the grader version chosen for a height (the ladder regenerated from node/opr.go and node/spr.go)
   is the protocol's table whenever the activations are in mainnet order *)
Theorem C11_opr_grader_version : forall c h,
  c_GradingV2Activation c <= c_PEGFreeFloatingPriceActivation c <= c_V4OPRUpdate c ->
  c_V4OPRUpdate c <= c_V20HeightActivation c ->
  opr_version c h =
    if c_V20HeightActivation c <=? h then 5 else if c_V4OPRUpdate c <=? h then 4
    else if c_PEGFreeFloatingPriceActivation c <=? h then 3 else if c_GradingV2Activation c <=? h then 2 else opr_version_ladder_init.
Proof. exact opr_version_table. Qed.
Print Assumptions C11_opr_grader_version.
Theorem C11_spr_grader_version : forall c h,
  c_V20HeightActivation c <= c_SprSignatureActivation c <= c_V202EnhanceActivation c ->
  spr_version c h = if c_V202EnhanceActivation c <=? h then 7 else if c_SprSignatureActivation c <=? h then 6 else 5.
Proof. exact spr_version_table. Qed.
Print Assumptions C11_spr_grader_version.

(* Staking records: which SPR-chain entries can be paid at all.  GradeS hands the staking grader exactly the
   entries that carry at least two external ids and whose declared staker id (ExtIDs[1]) is one of the 100 largest
   positive PEG balances of the COMMITTED database; the indices are in chain order, each once ... *)
Theorem C11_spr_entries_handed_to_the_grader : forall cm si i,
  In i (spr_incl cm si) <->
  exists e, nth_error (si_entries si) (Z.to_nat i) = Some e /\ 0 <= i /\ 2 <= se_nexts e /\
            exists a, se_staker e = Some a /\ In a (top100 cm).
Proof. exact spr_incl_spec. Qed.
Print Assumptions C11_spr_entries_handed_to_the_grader.
(* ... the verdict that pays is the grader's verdict for (version of the height, exactly those entries); an entry
   whose staker id is not a top holder is never among them ... *)
Theorem C11_spr_verdict_is_for_the_filtered_entries : forall c cm b v,
  grade_spr c cm b = Done (Some v) ->
  exists si, b_spr b = Some si /\
    find (fun a => (fst (fst a) =? spr_version c (b_height b)) && list_Z_eqb (snd (fst a)) (spr_incl cm si)) (si_alts si)
      = Some (spr_version c (b_height b), spr_incl cm si, Some v) /\
    In (spr_version c (b_height b), spr_incl cm si, Some v) (si_alts si) /\
    (forall i e, 0 <= i -> nth_error (si_entries si) (Z.to_nat i) = Some e ->
       (forall a, se_staker e = Some a -> ~ In a (top100 cm)) -> ~ In i (spr_incl cm si)).
Proof. exact grade_spr_uses_filtered_entries. Qed.
Print Assumptions C11_spr_verdict_is_for_the_filtered_entries.
(* ... and "top holder" means: at most 100 addresses, each with a positive PEG balance, none twice, and an address
   with a positive balance is left out only when 100 others hold at least as much. *)
Theorem C11_top_holders : forall cm,
  (List.length (top100 cm) <= 100)%nat /\
  List.NoDup (top100 cm) /\
  (forall a, In a (top100 cm) -> 0 < get_bal (bal cm) a PTickerPEG) /\
  (forall a, 0 < get_bal (bal cm) a PTickerPEG -> ~ In a (top100 cm) ->
     List.length (top100 cm) = 100%nat /\
     forall a', In a' (top100 cm) -> get_bal (bal cm) a' PTickerPEG >= get_bal (bal cm) a PTickerPEG).
Proof. exact top100_spec. Qed.
Print Assumptions C11_top_holders.
(* Before 2.0 the SPR chain plays no part in a block at all, and from 2.0 on an SPR verdict without winners ("blocks
   without enough valid records") changes nothing in the block: the whole block function returns what it returns
   without the SPR entries — nobody is paid and no rates come from them. *)
Theorem C11_spr_ignored_before_v20 : forall c cm mem b s,
  b_height b < c_V20HeightActivation c ->
  sync_block c cm mem b s =
  sync_block c cm mem {| b_height := b_height b; b_ts := b_ts b; b_opr := b_opr b; b_spr := None;
                         b_tx := b_tx b; b_factoid := b_factoid b |} s.
Proof. exact sync_block_ignores_spr_before_v20. Qed.
Theorem C11_spr_without_winners_pays_nothing : forall c cm mem b s g,
  grade_spr c cm b = Done g -> no_winners g -> grade_spr_err c cm b = false ->
  sync_block c cm mem b s = sync_block c cm mem (without_spr b) s.
Proof. exact sync_block_spr_no_winners_is_no_spr. Qed.
Print Assumptions C11_spr_without_winners_pays_nothing.
(* (The signature of a staking record is verified inside the staking grader, an oracle here; that the declared id is
   not bound to the signing key is the behaviour listed in DESIGN.md section 15.) *)

(* the ladders the translator read off the source are the expected ones *)
Example C11_ladders_from_source :
  opr_version_ladder_names = [("GradingV2Activation", 2); ("PEGFreeFloatingPriceActivation", 3); ("V4OPRUpdate", 4); ("V20HeightActivation", 5)]%string /\
  spr_version_ladder_names = [("V20HeightActivation", 5); ("SprSignatureActivation", 6); ("V202EnhanceActivation", 7)]%string /\
  opr_version_ladder_init = 1 /\ spr_version_ladder_init = 5.
Proof. repeat split; reflexivity. Qed.

Example C11_example :
  exists s m, replay ex_cfg genesis empty_cache ex_chain = Done (s, m) /\ get_bal (bal s) bob PTickerPEG = 5 /\
              get_bal (bal s) alice PTickerPEG = 0.
Proof. apply BlockLemmas.done_witness. vm_compute. repeat split; reflexivity. Qed.
