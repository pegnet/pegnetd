(* Props/C12.v — Recorded rates follow the winning records and are immutable.
   Only statements: theorems closed by [exact] (or a line or two), examples by evaluation; proofs live in Lemmas/. *)
From Model Require Import Examples.
From Coq Require Import Reals.
From Lemmas Require Import ChainLemmas HoldingLemmas NoWinners NoWinnersStatus BandLemmas.
Open Scope Z_scope.

(* Rates once recorded for a height never change: whatever a later block contains, every rate
   map present in the committed database is present, unchanged, afterwards. *)
Theorem C12_rates_immutable : forall c cm mem b s' mem',
  step_block c cm mem b = Done (s', mem') ->
  forall h r, rates cm !! h = Some r -> rates s' !! h = Some r.
Proof. exact step_block_rates_immutable. Qed.
Print Assumptions C12_rates_immutable.

(* A block records rates for no other height than its own. *)
Theorem C12_rates_only_for_own_height : forall c cm mem b s' mem' k,
  k <> b_height b -> step_block c cm mem b = Done (s', mem') -> rates s' !! k = rates cm !! k.
Proof. exact step_block_rates_only_own_height. Qed.
Print Assumptions C12_rates_only_for_own_height.

(* A block without winners records no rates: when the OPR verdict for the block (and, from 2.0 on, the SPR verdict)
   has no winners, the whole body of the loop leaves pn_rate exactly as it was -- whatever else the block contains,
   in every era, on every committed state.  (The verdicts are the graders' for the arguments the code passes.) *)
Theorem C12_block_without_winners_records_no_rates : forall c cm mem b s' mem',
  step_block c cm mem b = Done (s', mem') ->
  (forall g, grade_opr c cm b = Done g -> no_winners g) ->
  (c_V20HeightActivation c <= b_height b -> forall g, grade_spr c cm b = Done g -> no_winners g) ->
  rates s' = rates cm.
Proof. exact no_winners_no_rates. Qed.
Print Assumptions C12_block_without_winners_records_no_rates.
(* ... and executes no pending conversion: the batch-status table only grows in such a block -- every row recorded
   before it is still there, unchanged, so a batch that was pending stays pending (the holding pass, the only code
   that changes the status of an earlier batch, runs only when the block recorded rates) *)
Theorem C12_block_without_winners_changes_no_status : forall c cm mem b s' mem',
  step_block c cm mem b = Done (s', mem') ->
  (forall g, grade_opr c cm b = Done g -> no_winners g) ->
  (c_V20HeightActivation c <= b_height b -> forall g, grade_spr c cm b = Done g -> no_winners g) ->
  exists ext, hist s' = hist cm ++ ext.
Proof. exact no_winners_no_status_change. Qed.
Print Assumptions C12_block_without_winners_changes_no_status.
(* satisfiable: block 103 of the example chain (no OPR entries) applies, records nothing and leaves the pending
   conversion pending; block 104 (a winner) does record rates *)
Check no_winners_no_rates_example.
Check no_winners_status_example.

(* what is recorded from 2.0 on: only OPR winners -> the OPR's rates, only SPR winners -> the SPR's,
   neither -> no rates; both, per asset: the OPR value if it is inside the tolerance band around the
   SPR value (1% / 0.1% before the developer-reward activation, then 10%, 25% from 2.0.2), otherwise
   rate 0 from 2.0.2 on and no rates at all for the block before.  The band predicate is the binary64
   computation the code performs (Model/Band.v). *)
Theorem C12_only_opr : forall c h o, o <> [] -> select_rates c h o [] = RSel o.
Proof. exact select_rates_only_opr. Qed.
Theorem C12_only_spr : forall c h s, s <> [] -> select_rates c h [] s = RSel s.
Proof. exact select_rates_only_spr. Qed.
Theorem C12_no_winners_no_rates : forall c h, select_rates c h [] [] = RErr.
Proof. exact select_rates_none. Qed.
Theorem C12_band_rule : forall c h n ov sv,
  band_filter c h (h <? c_V20DevRewardsHeightActivation c) [(n, ov)] [(n, sv)] =
    let v0 := h <? c_V20DevRewardsHeightActivation c in
    let tol := if v0 then (if 100000 <=? sv then tol_01 else tol_1)
               else (if c_V202EnhanceActivation c <=? h then tol_25 else tol_10) in
    if in_band tol ov sv then RSel [(n, ov)]
    else if negb v0 && (c_V202EnhanceActivation c <=? h) then RSel [(n, 0)]
    else RErr.
Proof. exact band_one_asset. Qed.
Print Assumptions C12_band_rule.
(* The band predicate is a binary64 computation; its link to the real-number rule "kept iff |o - s| <= T x s", for EVERY
   pair of uint64 quotes and each of the four tolerances (T = 1/10, 1/4, 1/100, 1/1000), with eps = 2^-50 covering the
   roundings of float64(o), float64(s), 1 +/- tol and the two products (Flocq; Lemmas/BandLemmas.v): *)
Theorem C12_band_sound : forall tol T o s, band_tol tol T ->
  0 <= o < 2 ^ 64 -> 0 < s < 2 ^ 64 -> in_band tol o s = true ->
  (Rabs (IZR o - IZR s) <= (T + eps50) * IZR s)%R.
Proof. exact band_sound. Qed.
Theorem C12_band_complete : forall tol T o s, band_tol tol T ->
  0 <= o < 2 ^ 64 -> 0 < s < 2 ^ 64 ->
  (Rabs (IZR o - IZR s) <= (T - eps50) * IZR s)%R -> in_band tol o s = true.
Proof. exact band_complete. Qed.
Print Assumptions C12_band_complete.
(* for the band in force today (25 %) and quotes below 2^50 the predicate IS the integer rule *)
Theorem C12_band_25_exact : forall o s, 0 <= o < 2 ^ 53 -> 0 < s < 2 ^ 50 ->
  in_band tol_25 o s = (4 * Z.abs (o - s) <=? s).
Proof. exact band_25_exact. Qed.
(* eps cannot be 0: 1 + 0.001 rounds below 1001/1000, so a quote exactly 0.1 % above is dropped (closed era) ... *)
Example C12_band_01_upper_edge : in_band tol_01 100100 100000 = false /\ in_band tol_01 100099 100000 = true.
Proof. vm_compute. split; reflexivity. Qed.
(* ... and above 2^53 a quote strictly more than 10 % away can be kept *)
Example C12_band_needs_eps : in_band tol_10 6306855386940901 5733504897219000 = true /\
  10 * (6306855386940901 - 5733504897219000) > 5733504897219000.
Proof. exact band_sound_needs_eps. Qed.
Example C12_band_edges :
  in_band tol_10 110000 100000 = true /\ in_band tol_10 110001 100000 = false /\
  in_band tol_25 125000 100000 = true /\ in_band tol_25 125001 100000 = false /\
  in_band tol_25 75000 100000 = true /\ in_band tol_25 74999 100000 = false.
Proof. vm_compute. repeat split; reflexivity. Qed.

Example C12_example :
  exists s m, replay ex_cfg genesis empty_cache ex_chain = Done (s, m) /\
              (exists r, rates s !! 104 = Some r /\ r !! 23 = Some 400000000) /\ rates s !! 103 = None.
Proof. apply BlockLemmas.done_witness. vm_compute. split; [eexists; split; reflexivity|reflexivity]. Qed.
