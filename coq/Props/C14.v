(* Props/C14.v — Holder staking payouts: snapshot minimum, proportional, capped.
   Only statements: theorems closed by [exact] (or a line or two), examples by evaluation; proofs live in Lemmas/. *)
From Model Require Import Examples.
From Lemmas Require Import ArithLemmas PayoutLemmas IssuanceLedger.
From Gen Require Import Consts.
Open Scope Z_scope.

(* The total paid at a snapshot never exceeds the cap, equals it to the last unit whenever the
   total stake reaches it (the dust rule completes it), and below the cap everybody receives
   exactly his stake.  For every set of stakes (uint64 amounts, distinct payout ids). *)
Theorem C14_total_capped_and_exact : forall bank (rs : requests),
  reqs_ok rs -> txids_nodup rs -> 0 <= bank < two64 ->
  sum_snd (payouts bank rs) <= bank /\
  (bank <= total_requested_big rs -> rs <> [] -> sum_snd (payouts bank rs) = bank) /\
  (total_requested_big rs < bank -> payouts bank rs = rs).
Proof. exact payouts_never_exceed_bank. Qed.
Print Assumptions C14_total_capped_and_exact.

(* On the LEDGER (SnapshotPayouts, for every state and rate table): the snapshots rotate -- the new current snapshot
   is the ledger as the block's transaction sees it at that moment, the past one is what was current --, only PEG is
   created, by exactly the sum of the payouts computed from the sorted positive stakes, which never exceeds
   4500 PEG x 144, equals it when the stakes reach it, and is exactly the stakes below it. *)
Theorem C14_snapshot_on_the_ledger : forall c h ts rates s s',
  snapshot_payouts c h ts rates s = Ok s' ->
  let rs := snapshot_reqs c h rates s in
  snap_cur s' = bal s /\ snap_past s' = snap_cur s /\
  (forall t, supply s' t = supply s t + (if t =? PTickerPEG then sum_snd (payouts staking_cap rs) else 0)) /\
  sum_snd (payouts staking_cap rs) <= staking_cap /\
  (staking_cap <= total_requested_big rs -> rs <> [] -> sum_snd (payouts staking_cap rs) = staking_cap) /\
  (total_requested_big rs < staking_cap -> payouts staking_cap rs = rs).
Proof. exact snapshot_payouts_ledger. Qed.
Print Assumptions C14_snapshot_on_the_ledger.

(* the cap is 4,500 PEG x 144 *)
Example C14_cap : PerBlockAssetHolders * SnapshotRate = 4500 * 100000000 * 144.
Proof. reflexivity. Qed.

(* The stake of an address depends on the two snapshots only through the per-asset minimum: funds
   that arrived after the previous snapshot earn nothing. *)
Theorem C14_minimum_of_two_snapshots : forall c h rates past cur past' cur' a,
  (forall t, Z.min (get_bal cur a t) (get_bal past a t) = Z.min (get_bal cur' a t) (get_bal past' a t)) ->
  stake_of c h rates past cur a = stake_of c h rates past' cur' a.
Proof. exact stake_depends_on_minimum_only. Qed.
Print Assumptions C14_minimum_of_two_snapshots.

(* An address absent from the previous snapshot has no stake (and is filtered out: not paid). *)
Theorem C14_absent_not_paid : forall c h rates past cur a,
  (forall t, get_bal past a t = 0) -> (forall t, 0 <= get_bal cur a t) -> stake_of c h rates past cur a = Some 0.
Proof. exact stake_absent_is_zero. Qed.
Print Assumptions C14_absent_not_paid.

(* The payout is a function of the stakes, not of the order in which Go's map iteration visits them *)
Theorem C14_order_independent : forall bank (a b : requests),
  Permutation.Permutation a b -> List.NoDup (map fst a) -> Permutation.Permutation (payouts bank a) (payouts bank b).
Proof. exact payouts_perm. Qed.
Print Assumptions C14_order_independent.

(* the payout ids of one snapshot are distinct, so the hypotheses above are met by the code's requests *)
Theorem C14_payout_ids_distinct : forall (txh : Z) (lst : list (addr * Z)),
  List.NoDup (map fst (map (fun x : Z * (addr * Z) => ((txh, fst x), snd (snd x))) (index_from 0 lst))).
Proof. exact staking_txids_distinct. Qed.
Print Assumptions C14_payout_ids_distinct.

Example C14_example :
  (* three stakes above the cap: proportional shares plus the dust to the largest; total = cap *)
  let rs : requests := [((288, 0), 300000000000000); ((288, 1), 300000000000000); ((288, 2), 400000000000001)] in
  sum_snd (payouts (PerBlockAssetHolders * SnapshotRate) rs) = PerBlockAssetHolders * SnapshotRate /\
  (* two small stakes: paid 1:1 *)
  payouts (PerBlockAssetHolders * SnapshotRate) [((288, 0), 5); ((288, 1), 7)] = [((288, 0), 5); ((288, 1), 7)].
Proof. vm_compute. split; reflexivity. Qed.
