(* Props/C16.v — PEG conversion bank (legacy era): limit, proportional yield, refund.
   Only statements: theorems closed by [exact] (or a line or two), examples by evaluation; proofs live in Lemmas/. *)
From Model Require Import Examples.
From Lemmas Require Import ArithLemmas PayoutLemmas HistoryLemmas4 BankLemmas.
From Gen Require Import Consts.
Open Scope Z_scope.

(* The PEG created by the conversions of one bank never exceeds the bank; every request receives its
   full amount if the total fits, and when it does not the bank is handed out to the last unit. *)
Theorem C16_bank_not_exceeded : forall bank (rs : requests),
  reqs_ok rs -> txids_nodup rs -> 0 <= bank < two64 ->
  sum_snd (payouts bank rs) <= bank /\
  (bank <= total_requested_big rs -> rs <> [] -> sum_snd (payouts bank rs) = bank) /\
  (total_requested_big rs < bank -> payouts bank rs = rs).
Proof. exact payouts_never_exceed_bank. Qed.
Print Assumptions C16_bank_not_exceeded.

(* each proportional share is floor(request * bank / total) (no wrap-around), never more than the bank *)
Theorem C16_share_is_floor : forall req bank total,
  0 <= req <= total -> 0 <= bank < two64 ->
  payout_big req bank total = (if (req =? 0) || (bank =? 0) || (total =? 0) then 0 else req * bank / total) /\
  0 <= payout_big req bank total <= bank.
Proof. exact payout_big_bounds. Qed.
Print Assumptions C16_share_is_floor.

(* the unconverted part is refunded in the source asset so that yield plus refund never exceeds
   the value of the input *)
Theorem C16_refund_bound : forall pip10 inp y ir pr,
  0 <= ir -> 0 <= pr -> 0 <= y ->
  forall maxy, convert pip10 inp ir ir pr pr = Some maxy -> y <= maxy ->
  y * pr + refund pip10 inp y ir pr * ir <= inp * ir.
Proof. exact refund_bound. Qed.
Print Assumptions C16_refund_bound.

(* the yields are a function of the set of requests, not of map iteration order *)
Theorem C16_order_independent : forall bank (a b : requests),
  Permutation.Permutation a b -> List.NoDup (map fst a) -> Permutation.Permutation (payouts bank a) (payouts bank b).
Proof. exact payouts_perm. Qed.
Print Assumptions C16_order_independent.

(* The same at the level of the LEDGER (recordPegnetRequests on entries made of PEG requests): the PEG supply grows
   by exactly the sum of the yields, which is at most the bank (all of it when the requests reach it, exactly what
   was asked below it); from V4OPRUpdate on the bank row keeps its amount and records used = PEG created and
   requested = the total asked for; before, no bank row is written.  For every state, every set of entries. *)
Theorem C16_peg_created_within_bank : forall c h s batches rates avgs bankamt bh s',
  pure_peg_batches batches -> 0 <= bankamt < two64 ->
  record_peg_requests c h s batches rates avgs bankamt bh = Ok s' ->
  let rs := map (fun r => (pr_txid r, pr_amt r)) (reqs_of c h rates avgs batches) in
  supply s' PTickerPEG = supply s PTickerPEG + sum_snd (payouts bankamt rs) /\
  sum_snd (payouts bankamt rs) <= bankamt /\
  (bankamt <= total_requested_big rs -> rs <> [] -> sum_snd (payouts bankamt rs) = bankamt) /\
  (total_requested_big rs < bankamt -> payouts bankamt rs = rs) /\
  (c_V4OPRUpdate c <= bh -> exists amount u q, bank s !! bh = Some (amount, u, q) /\
      bank s' = <[bh := (amount, sum_snd (payouts bankamt rs), total_requested rs)]> (bank s)) /\
  (bh < c_V4OPRUpdate c -> bank s' = bank s).
Proof. exact peg_created_within_bank. Qed.
Print Assumptions C16_peg_created_within_bank.
(* hypotheses satisfiable: two entries asking for more than the 5000 PEG bank create exactly 5000 PEG *)
Check peg_created_within_bank_hyps.

Example C16_example :
  BankBaseAmount = 5000 * 100000000 /\
  sum_snd (payouts BankBaseAmount [((7, 0), 400000000000); ((8, 0), 400000000000); ((9, 1), 1)]) = BankBaseAmount /\
  payouts BankBaseAmount [((7, 0), 100); ((8, 0), 200)] = [((7, 0), 100); ((8, 0), 200)].
Proof. vm_compute. repeat split; reflexivity. Qed.
