(* Props/C10.v — Fault transparency: transient upstream/storage errors never change the result.
   Only statements: theorems closed by [exact] (or a line or two), examples by evaluation; proofs live in Lemmas/. *)
From Model Require Import Examples Sync SitesSpec.
From Lemmas Require Import SyncLemmas RestartLemmas SitesC10.
From Gen Require Import Consts Sites.
From Coq Require Import String.
Open Scope list_scope.
Open Scope Z_scope.

(* An attempt in which any statement or request fails — wherever the error PROPAGATES — ends in a
   rollback ([t_rollback]: the database is untouched, only the in-memory cache may have moved) and
   is retried; whatever the number and position of such failures, crashes and restarts, the
   database reached is the fault-free replay of the applied prefix. *)
Theorem C10_faults_never_change_the_result : forall c chain h0 n todo,
  0 < h0 -> heights_from h0 chain ->
  reach c ({| n_db := genesis; n_mem := empty_cache |}, chain) (n, todo) ->
  exists done_ m, chain = done_ ++ todo /\ replay c genesis empty_cache done_ = Done (n_db n, m).
Proof. exact loop_consistent. Qed.
Print Assumptions C10_faults_never_change_the_result.

(* "wherever the error propagates": the places in the code reachable from the block application
   where an error result is discarded, only logged, overwritten or replaced by another variable are
   exactly the reviewed ones (regenerated from /repo on every run).  Three of them are genuine
   defects recorded in known_findings.jsonl: the discarded result of NullifyBurnAddress and the two
   logged-only errors inside it (Refuted/C10.v); the others cannot skip an effect (bad OPR/SPR
   records skipped on purpose, constant addresses, sql.ErrNoRows, validation verdicts). *)
Theorem C10_no_unreviewed_dropped_error :
  forall f cc h x, In (f, cc, h, x) discarded_errors -> exists n, In (f, cc, h, n) expected_discarded.
Proof. exact discarded_errors_expected_forall. Qed.
Print Assumptions C10_no_unreviewed_dropped_error.
Theorem C10_no_additional_site_of_a_reviewed_kind : check_discarded_counts = true.
Proof. exact discarded_errors_counts. Qed.

(* the loop model's memory after a failed attempt is sound for every later block *)
Theorem C10_cache_after_failed_attempt_is_sound : forall c cm mem' hn,
  0 < hn -> cache_from c cm mem' hn -> cache_ok c cm mem' hn.
Proof. exact cache_from_ok. Qed.

Example C10_example : exists f cc h n, In (f, cc, h, n) expected_discarded /\ f = "node.Pegnetd.DBlockSync"%string.
Proof. eexists _, _, _, _. split; [unfold expected_discarded; do 3 right; left; reflexivity|reflexivity]. Qed.
