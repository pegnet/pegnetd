(* Props/C19.v — Version lock: a database synced across a hard fork by an old build is refused.
   Only statements: theorems closed by [exact] (or a line or two), examples by evaluation; proofs live in Lemmas/ForksLemmas.v, the model in
   Model/Forks.v (check_hard_forks, sessions, the ghost log [synced_log] of which build really
   synced which height).

   Reading guide.  [refuses forks base h cur]: after the history h (a list of sessions
   (build, blocks), each tracked session itself starting with the real check and syncing
   nothing when refused) on a fresh database whose first block is base+1, the start-up of a
   build with sync version cur is refused by CheckHardForks.  An untracked build is recorded
   by the code's back-fill as version -1; the table entry {0, -1} therefore lets it pass, which is
   the conjunct [0 <= m] below.

   Hypotheses, all needed (witnesses in Refuted/C19.v):
     0 <= base                       heights are uint32; COALESCE(min(height), 0)
     base < A \/ m <= -1             a fork at or below the base height that demands a version
                                     gets a -1 row from the back-fill on ANY database (and is
                                     checked on an empty one): every database would be refused
     -1 <= cur                       COALESCE(MAX(version), -1)
     untracked_first h               (for "if" only) an untracked build that syncs blocks AFTER a
                                     tracked build leaves heights without rows that nothing
                                     ever notices: version_lock_iff_any_order_refuted *)
From Coq Require Import ZArith List Bool.
From Model Require Import Base Forks.
From Gen Require Consts.
From Lemmas Require Import ForksLemmas.
Open Scope Z_scope.

(* For all fork tables and all histories (unbounded): refused if and only if some block at or
   above a fork height was synced by a build older than the fork requires (or untracked), or
   some block was synced by a newer build than the one starting. *)
Theorem C19_version_lock_iff : forall (forks : list (Z * Z)) (base : Z) (h : list session) (cur : Z),
  0 <= base ->
  (forall A m, In (A, m) forks -> base < A \/ m <= -1) ->
  -1 <= cur ->
  untracked_first h = true ->
  (refuses forks base h cur = true <->
   (exists A m b, In (A, m) forks /\ A <= b /\
      ((In (b, Untracked) (synced_log forks base h) /\ 0 <= m) \/
       (exists v, In (b, Tracked v) (synced_log forks base h) /\ v < m)))
   \/ (exists b v, In (b, Tracked v) (synced_log forks base h) /\ cur < v)).
Proof. exact version_lock_iff. Qed.
Print Assumptions C19_version_lock_iff.

(* "only if" for EVERY history, in whatever order tracked and untracked builds ran: a refusal
   is always justified *)
Theorem C19_refusal_justified : forall (forks : list (Z * Z)) (base : Z) (h : list session) (cur : Z),
  0 <= base ->
  (forall A m, In (A, m) forks -> base < A \/ m <= -1) ->
  -1 <= cur ->
  refuses forks base h cur = true ->
  (exists A m b, In (A, m) forks /\ A <= b /\
      ((In (b, Untracked) (synced_log forks base h) /\ 0 <= m) \/
       (exists v, In (b, Tracked v) (synced_log forks base h) /\ v < m)))
  \/ (exists b v, In (b, Tracked v) (synced_log forks base h) /\ cur < v).
Proof. exact version_lock_refusal_justified. Qed.
Print Assumptions C19_refusal_justified.

(* "Databases synced entirely with adequate builds are always accepted": every history *)
Theorem C19_adequate_always_accepted : forall (forks : list (Z * Z)) (base : Z) (h : list session) (cur : Z),
  0 <= base ->
  (forall A m, In (A, m) forks -> base < A \/ m <= -1) ->
  -1 <= cur ->
  (forall b bld, In (b, bld) (synced_log forks base h) ->
     bver bld <= cur /\ forall A m, In (A, m) forks -> A <= b -> m <= bver bld) ->
  accepts forks base h cur = true.
Proof. exact adequate_always_accepted. Qed.
Print Assumptions C19_adequate_always_accepted.

(* the same for the fork table, base height and sync version that the repository carries
   (regenerated into Gen/Consts.v on every run): the hypotheses on them are discharged by
   computation *)
Theorem C19_version_lock_iff_repo_table : forall (h : list session),
  untracked_first h = true ->
  let lg := synced_log Consts.hardforks Consts.PegnetActivation h in
  (refuses Consts.hardforks Consts.PegnetActivation h Consts.PegnetdSyncVersion = true <->
   (exists A m b, In (A, m) Consts.hardforks /\ A <= b /\
      ((In (b, Untracked) lg /\ 0 <= m) \/ (exists v, In (b, Tracked v) lg /\ v < m)))
   \/ (exists b v, In (b, Tracked v) lg /\ Consts.PegnetdSyncVersion < v)).
Proof. exact version_lock_iff_repo_table. Qed.
Print Assumptions C19_version_lock_iff_repo_table.

(* the executable oracle used on the implementation's verdicts (Corr/Forks.v) is the
   right-hand side of the theorem *)
Theorem C19_oracle_is_the_characterisation : forall forks cur lg,
  charb forks cur lg = true <-> below_fork forks lg \/ newer_build cur lg.
Proof. exact charb_spec. Qed.
Print Assumptions C19_oracle_is_the_characterisation.

(* the ghost log is what it is meant to be: a block commit never fails from a reachable
   state, so a session that starts syncs all its blocks *)
Theorem C19_commit_never_conflicts : forall base b st,
  inv base st -> exists st', sync_block base b st = Some st'.
Proof. exact sync_block_total. Qed.
Print Assumptions C19_commit_never_conflicts.

(* before the repair (bs.Synced > ActivationHeight): a legacy database synced exactly to a fork
   height was accepted although the fork block was applied by the untracked build *)
Theorem C19_pre_repair_accepted_fork_height :
  exists forks base h cur,
    0 <= base /\ forks_wf base forks /\ -1 <= cur /\ untracked_first h = true /\
    below_fork_lit forks (snd (run_history_legacy forks base h)) /\
    accepts_legacy forks base h cur = true /\
    accepts forks base h cur = false.
Proof. exact legacy_check_accepted_fork_height. Qed.
Print Assumptions C19_pre_repair_accepted_fork_height.

(* non-vacuity *)
Definition ex_forks : list (Z * Z) := [(0, -1); (12, 1); (14, 2)].

(* the hypotheses are satisfiable together, on a table with real forks *)
Example C19_hypotheses_example :
  0 <= 10 /\ (forall A m, In (A, m) ex_forks -> 10 < A \/ m <= -1) /\ -1 <= 2 /\
  untracked_first [(Untracked, 1%nat); (Tracked 1, 2%nat); (Tracked 2, 3%nat)] = true.
Proof.
  split; [discriminate|]. split; [apply forks_wfb_spec; vm_compute; reflexivity|].
  split; [discriminate|reflexivity].
Qed.

(* upgraded in time across both forks (legacy start, then build 1, then build 2): accepted,
   and the log holds the six blocks with the builds that synced them *)
Example C19_accept_example :
  refuses ex_forks 10 [(Untracked, 1%nat); (Tracked 1, 2%nat); (Tracked 2, 3%nat)] 2 = false /\
  synced_log ex_forks 10 [(Untracked, 1%nat); (Tracked 1, 2%nat); (Tracked 2, 3%nat)]
  = [(16, Tracked 2); (15, Tracked 2); (14, Tracked 2); (13, Tracked 1); (12, Tracked 1); (11, Untracked)].
Proof. split; vm_compute; reflexivity. Qed.

(* the fork block 14 synced by build 1: refused, for the reason the theorem names *)
Example C19_refuse_old_build_example :
  refuses ex_forks 10 [(Tracked 1, 4%nat)] 2 = true /\
  In (14, 2) ex_forks /\ In (14, Tracked 1) (synced_log ex_forks 10 [(Tracked 1, 4%nat)]).
Proof. split; [vm_compute; reflexivity|]. split; vm_compute; tauto. Qed.

(* legacy database synced exactly to the fork height 12 (the repaired case): refused, and the
   refusal persists: the next tracked session syncs nothing *)
Example C19_refuse_legacy_at_fork_height_example :
  refuses ex_forks 10 [(Untracked, 2%nat)] 1 = true /\
  In (12, Untracked) (synced_log ex_forks 10 [(Untracked, 2%nat)]) /\
  synced_log ex_forks 10 [(Untracked, 2%nat); (Tracked 1, 5%nat)] = [(12, Untracked); (11, Untracked)].
Proof. split; [vm_compute; reflexivity|]. split; [vm_compute; tauto|vm_compute; reflexivity]. Qed.

(* downgrade: blocks synced by build 2, build 1 starts *)
Example C19_refuse_downgrade_example :
  refuses ex_forks 10 [(Tracked 2, 1%nat)] 1 = true /\
  In (11, Tracked 2) (synced_log ex_forks 10 [(Tracked 2, 1%nat)]).
Proof. split; [vm_compute; reflexivity|vm_compute; tauto]. Qed.

(* adequate builds throughout: the premise of C19_adequate_always_accepted holds of a real history *)
Example C19_adequate_example :
  forall b bld, In (b, bld) (synced_log ex_forks 10 [(Tracked 0, 1%nat); (Tracked 1, 2%nat); (Tracked 2, 3%nat)]) ->
    bver bld <= 2 /\ forall A m, In (A, m) ex_forks -> A <= b -> m <= bver bld.
Proof.
  intros b bld H. vm_compute in H.
  repeat (destruct H as [H|H]; [inversion H; subst; clear H; split; [discriminate|];
    intros A m Hf Hle; vm_compute in Hf;
    repeat (destruct Hf as [Hf|Hf]; [inversion Hf; subst; clear Hf; cbn; lia|]); destruct Hf|]).
  destruct H.
Qed.

(* the repository's own table, base height and sync version satisfy the hypotheses *)
Example C19_repo_table_example :
  0 <= Consts.PegnetActivation /\
  forks_wfb Consts.PegnetActivation Consts.hardforks = true /\
  -1 <= Consts.PegnetdSyncVersion.
Proof. exact repo_table_wellformed. Qed.

(* a reachable state for C19_commit_never_conflicts *)
Example C19_inv_example : inv 10 (run_history ex_forks 10 [(Untracked, 1%nat); (Tracked 1, 2%nat)]).
Proof. exact (run_history_keeps_inv ex_forks 10 _). Qed.
