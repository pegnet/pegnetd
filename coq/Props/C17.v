(* Props/C17.v — History and status tell the truth about the ledger.
   Only statements: theorems closed by [exact] (or a line or two), examples by evaluation; proofs live in Lemmas/. *)
From Model Require Import Examples.
From Model Require Import Api.
From Lemmas Require Import StatusLemmas LedgerLemmas HistoryLemmas HistoryLemmas2 HistoryLemmas3 HistoryLemmas4 ApiLemmas ApiReflect ApiInvariant.
From Corr Require Import Chain.
Open Scope Z_scope.

(* a batch that is rejected gets exactly the (negative) reject code as its status and no balance moves *)
Theorem C17_rejected_status_and_no_effect : forall c cur rates avgs s e hh txs code,
  entry_valid_at c e hh = Some txs -> ((c_V20HeightActivation c <=? cur) && has_peg_conversion txs) = false ->
  (exists t, entry_valid_at c e cur = Some t) -> is_replay s (e_hash e) = false ->
  apply_batch c cur s (e_hash e) txs rates avgs = BRejected code ->
  exists s', apply_held c cur rates avgs s e hh = Ok (s', false) /\ bal s' = bal s /\
             Forall (fun x => x = code) (status_of s' (e_hash e)).
Proof. exact rejected_held_status. Qed.
Print Assumptions C17_rejected_status_and_no_effect.

(* effects only with an execution: whenever a held batch changes a balance the complete batch was
   recorded (and recording sets the status to the executing height) *)
Theorem C17_effects_only_when_executed : forall c cur rates avgs s e hh s' isp,
  apply_held c cur rates avgs s e hh = Ok (s', isp) ->
  bal s' = bal s \/ exists txs, entry_valid_at c e hh = Some txs /\ record_batch c cur (e_hash e) rates avgs txs s = Ok s'.
Proof. exact apply_held_all_or_nothing. Qed.
Print Assumptions C17_effects_only_when_executed.

(* paging: a page is LIMIT/OFFSET over a fixed order; following nextoffset page by page returns every
   matching action exactly once, in order *)
Theorem C17_paging_exact : forall (A : Type) (l : list A) (lim : nat), (0 < lim)%nat -> pages (S (length l)) l 0 lim = l.
Proof. exact @paging_exact. Qed.
Print Assumptions C17_paging_exact.


(* The history queries of the API (Model/Api.v: historyQueryBuilder / historySelectHelper).
   [hist_wf s]: one batch row per hash, the primary keys of the transaction and lookup tables, every lookup row has its
   transaction row and every transaction row its batch row.  Under it the count the API reports is the number of actions
   the data query yields, for every field, filter and order ... *)
Theorem C17_api_count_is_the_number_of_actions : forall s q, hist_wf s -> query_count s q = length (query_all s q).
Proof. exact count_is_length. Qed.
Print Assumptions C17_api_count_is_the_number_of_actions.
(* ... following the pages from offset 0 (LIMIT 50, next offset while below the count) returns every matching action
   exactly once, in order, nothing twice and nothing left out ... *)
Theorem C17_api_pages_return_everything_once : forall s q fuel,
  hist_wf s -> (S (length (query_all s q)) <= fuel)%nat -> walk_pages fuel s q 0 = query_all s q.
Proof. exact walk_pages_all_wf. Qed.
Print Assumptions C17_api_pages_return_everything_once.
(* ... a query by entry hash returns exactly the recorded actions of that entry ... *)
Theorem C17_api_by_hash_complete : forall s q h,
  hist_wf s -> q_field q = ByHash h -> q_actions q = [] -> q_asset q = None -> q_txindex q = None ->
  In h (map hb_hash (hist s)) -> query_all s q = map htx_key (filter (fun t => ht_hash t =? h) (htxs s)).
Proof. exact hash_query_complete. Qed.
(* ... a query by address returns exactly the actions that involve the address (have a lookup row), each once ... *)
Theorem C17_api_by_address_exactly_once : forall s q a,
  hist_wf s -> q_field q = ByAddress a -> q_actions q = [] -> q_asset q = None ->
  NoDup (query_all s q) /\ forall k, In k (query_all s q) <-> In (k, a) (lookups s).
Proof. exact address_query_exactly_once. Qed.
Print Assumptions C17_api_by_address_exactly_once.
(* ... a query by height the actions of the batches entered at that height, each once ... *)
Theorem C17_api_by_height_complete : forall s q hh,
  hist_wf s -> q_field q = ByHeight hh -> q_actions q = [] -> q_asset q = None ->
  Permutation (query_all s q) (map htx_key (filter (at_height s hh) (htxs s))) /\ NoDup (query_all s q).
Proof. intros s q hh Hw Hf Ha Hs. split; [exact (height_query_complete s q hh Hw Hf Ha Hs) | exact (height_query_nodup s q hh Hw Hf Ha Hs)]. Qed.
(* ... descending order is the same set of actions, and the status look-up is the batch row's (height, executed). *)
Theorem C17_api_desc_same_actions : forall s q, Permutation (query_all s (flip_desc q)) (query_all s q).
Proof. exact desc_is_permutation. Qed.
Theorem C17_api_status : forall s b, hist_wf s -> In b (hist s) -> query_status s (hb_hash b) = (hb_height b, hb_exec b).
Proof. exact query_status_spec. Qed.
Print Assumptions C17_api_status.
(* Every state the model can reach has well-formed history tables except, possibly, for "one batch row per hash": the primary keys
   of the transaction and lookup tables and both foreign-key facts are invariants of every chain, whatever it contains ... *)
Theorem C17_history_tables_well_formed_after_every_chain : forall c bs s m,
  replay c genesis empty_cache bs = Done (s, m) -> hist_wf_weak s.
Proof. exact replay_hist_wf_weak. Qed.
Print Assumptions C17_history_tables_well_formed_after_every_chain.
(* ... so the API theorems hold after every chain whose batch hashes are distinct (the hypothesis of C17_history_replays_every_chain) *)
Theorem C17_api_after_every_chain : forall c bs s m,
  replay c genesis empty_cache bs = Done (s, m) -> NoDup (map hb_hash (hist s)) -> hist_wf s.
Proof. exact replay_hist_wf. Qed.
(* and that hypothesis is needed: a reachable state with two batch rows for one hash (a factoid transaction id equal to a mock id of
   the zeroing at the developer-reward activation), where the query by hash returns every action twice *)
Check reachable_duplicate_batch_hash.

(* [hist_wfb] is an executable test of hist_wf (sound: hist_wfb s = true -> hist_wf s); the chain correspondence evaluates it on
   the model's final state of every chain, so on those states the two statements below hold unconditionally. *)
Theorem C17_api_on_a_tested_state : forall s q fuel,
  hist_wfb s = true -> (S (length (query_all s q)) <= fuel)%nat ->
  query_count s q = length (query_all s q) /\ walk_pages fuel s q 0 = query_all s q.
Proof. exact api_walk_on_tested_state. Qed.
Print Assumptions C17_api_on_a_tested_state.
(* "one batch row per hash" is NOT implied by the schema (UNIQUE(entry_hash, height) only): with a second batch row for a
   hash the address count (60) falls short of the joined rows (120) and the walk omits 20 of them — the shape of the one
   id reuse at 260118 (DESIGN.md section 15).  The check evaluates hist_wf on the final state of every chain it runs. *)
Example C17_api_second_batch_row_breaks_paging :
  exists s', insert_hbatch ex_dup_db (ex_b 7 101 0) = Ok s' /\
    let q := ex_q (ByAddress 5) false in
    query_count s' q = 60%nat /\ length (query_all s' q) = 120%nat /\
    length (walk_pages 10 s' q 0) = 100%nat /\
    query_all s' (ex_q (ByHash 7) false) = query_all ex_dup_db (ex_q (ByHash 7) false) ++ query_all ex_dup_db (ex_q (ByHash 7) false) /\
    query_count ex_dup_db q = 60%nat /\ length (query_all ex_dup_db q) = 60%nat.
Proof. exact dup_hash_breaks_count. Qed.

(* The credited amounts are the recorded amounts.
   [row_effect burn r] is what an EXECUTED history row stands for (transfer: -from_amount on the sender,
   +amount on each output that is not the burn address; conversion: -from_amount of the source asset,
   +to_amount of the destination asset (+ the recorded refund outputs); coinbase / burn: +to_amount);
   [rows_effect burn a t rows] sums it on the cell (a, t).  Whenever a batch is recorded, its rows carry
   the converted amounts, every batch row of that hash says "executed at h", no other history row moves,
   and EVERY cell moves by exactly what the rows of the batch stand for. *)
Theorem C17_recorded_amounts_are_the_credited_amounts : forall c h hs rates avgs txs s s',
  record_batch c h hs rates avgs txs s = Ok s' ->
  no_deferred c h txs = true ->                 (* no bank-era PEG request in the batch (those are paid by the bank pass) *)
  convs_fit c h rates avgs txs = true ->        (* converted amounts are int64 values (implied by non-negative rates) *)
  rows_of hs (htxs s) = map fst (history_rows_of hs txs) ->   (* the rows as insert_history left them *)
  rows_of hs (htxs s') = exec_rows c h rates avgs hs 0 txs /\
  rows_not hs (htxs s') = rows_not hs (htxs s) /\
  hist s' = match txs with [] => hist s | _ => mark_exec hs h (hist s) end /\
  (forall a t, get_bal (bal s') a t =
               get_bal (bal s) a t + rows_effect (burn_addr c h) a t (rows_of hs (htxs s'))).
Proof. exact record_batch_history. Qed.
Print Assumptions C17_recorded_amounts_are_the_credited_amounts.

(* arrival path: a transfer-only batch not seen before is either executed -- rows, status h and every cell
   accounted for -- or stays as inserted with status 0 / -1 and no cell moves *)
Theorem C17_arriving_batch_history : forall c h s order e txs s',
  apply_entry c h s order e = Ok s' ->
  entry_valid_at c e h = Some txs ->
  is_replay s (e_hash e) = false -> hist_has s (e_hash e) = false ->
  has_conversions txs = false -> rows_of (e_hash e) (htxs s) = [] ->
  rows_not (e_hash e) (htxs s') = rows_not (e_hash e) (htxs s) /\
  ( ( txs <> [] /\
      rows_of (e_hash e) (htxs s') = exec_rows c h ∅ ∅ (e_hash e) 0 txs /\
      hist s' = hist s ++ [batch_row e h order h] /\
      forall a t, get_bal (bal s') a t =
                  get_bal (bal s) a t + rows_effect (burn_addr c h) a t (rows_of (e_hash e) (htxs s')) )
    \/
    ( rows_of (e_hash e) (htxs s') = pend_rows (e_hash e) 0 txs /\ bal s' = bal s /\
      (hist s' = hist s ++ [batch_row e h order 0] \/ hist s' = hist s ++ [batch_row e h order (-1)]) ) ).
Proof. exact apply_entry_history. Qed.
Print Assumptions C17_arriving_batch_history.

(* holding path: a held batch looked at by a rated block is either executed with the full accounting, or no
   row and no cell moves and its status is left alone or set to a negative code *)
Theorem C17_held_batch_history : forall c cur rates avgs s e hh s' isp txs,
  apply_held c cur rates avgs s e hh = Ok (s', isp) ->
  entry_valid_at c e hh = Some txs ->
  no_deferred c cur txs = true -> convs_fit c cur rates avgs txs = true ->
  rows_of (e_hash e) (htxs s) = map fst (history_rows_of (e_hash e) txs) ->
  isp = false /\
  ( ( apply_batch c cur s (e_hash e) txs rates avgs = BApplied s' /\
      rows_of (e_hash e) (htxs s') = exec_rows c cur rates avgs (e_hash e) 0 txs /\
      rows_not (e_hash e) (htxs s') = rows_not (e_hash e) (htxs s) /\
      hist s' = match txs with [] => hist s | _ => mark_exec (e_hash e) cur (hist s) end /\
      forall a t, get_bal (bal s') a t =
                  get_bal (bal s) a t + rows_effect (burn_addr c cur) a t (rows_of (e_hash e) (htxs s')) )
    \/
    ( htxs s' = htxs s /\ bal s' = bal s /\
      (hist s' = hist s \/ exists code, code < 0 /\ hist s' = mark_exec (e_hash e) code (hist s)) ) ).
Proof. exact apply_held_history. Qed.
Print Assumptions C17_held_batch_history.

(* the coinbase-style writers: the rows they append account for every cell they move *)
Theorem C17_rewards_history : forall s ts ws s',
  pay_winners s ts ws = Ok s' -> payouts_fit ws = true ->
  htxs s' = htxs s ++ winner_rows ws /\ hist s' = hist s ++ winner_batches ts ws /\
  forall burn a t, get_bal (bal s') a t = get_bal (bal s) a t + rows_effect burn a t (winner_rows ws).
Proof. exact pay_winners_history. Qed.
Print Assumptions C17_rewards_history.
Theorem C17_burns_history : forall h s fs s',
  apply_factoid_block h s fs = Ok s' ->
  htxs s' = htxs s ++ burn_rows fs /\ hist s' = hist s ++ burn_batches h fs /\
  forall burn a t, get_bal (bal s') a t = get_bal (bal s) a t + rows_effect burn a t (burn_rows fs).
Proof. exact apply_factoid_block_history. Qed.
Print Assumptions C17_burns_history.
(* the two passes of the legacy PEG bank (Lemmas/HistoryLemmas4.v): the first pass debits a PEG request and leaves
   its row as inserted; the second writes to_amount := yield and outputs := [(sender, refund)] and credits exactly
   those -- the accounting equation closes for any yield.  (Why the chain theorem still excludes conversions into
   PEG: a batch dropped because one of its conversions overflows is nevertheless paid by the bank pass --
   bank_pays_a_dropped_peg_batch, mirrored closed-era behaviour, DESIGN section 15.) *)
Check record_batch_history2.
Check record_peg_requests_history.
Check hist_ok_record_peg_requests.
Check bank_era_hist_ok_example.
Check bank_pays_a_dropped_peg_batch.
(* developer rewards and staking payouts: Lemmas/HistoryLemmas.v *)
Check developers_payouts_history.
Check snapshot_payouts_history.
(* the hypotheses are satisfiable on the example chain *)
Check record_batch_history_hyps.
Check apply_entry_history_hyps.
Check apply_held_history_hyps.
Check pay_winners_history_hyps.

(* Replaying the recorded history reproduces every address's balances: EVERY chain.
   [accounts c s]: every cell (a, t) with a outside the three special addresses (the two burn addresses and the
   mint address: the one-time adjustments) equals [hist_sum c s a t], the sum over ALL transaction rows whose
   batch counts as executed (first batch row of the hash, status > 0) of what the row stands for.
   Hypotheses: [block_okb] for every block -- heights positive, no transaction converts INTO PEG (the PEG-bank
   payout of the legacy era is not covered: recorded finding on mixed batches), the graders' payouts are uint64
   values and reported prices non-negative; and the final batch-row hashes are distinct (no collision between
   an entry hash and the synthetic ids the daemon makes up for coinbase rows: true of SHA-256 hashes except for
   the one id reuse recorded in DESIGN section 15, nullify-burn at 260118). *)
Theorem C17_history_replays_every_chain : forall c bs s m,
  forallb block_okb bs = true ->
  replay c genesis empty_cache bs = Done (s, m) ->
  NoDup (map hb_hash (hist s)) ->
  accounts c s.
Proof. exact replay_accounts. Qed.
Print Assumptions C17_history_replays_every_chain.
(* hypotheses satisfiable, and the theorem applied: alice's pUSD after the example chain is 80 both ways *)
Check replay_accounts_hyps.
Check replay_accounts_example.

(* the same statement as an executable oracle (Corr.Chain.impl_history_replays), on the model's own example ... *)
Example C17_history_replays_on_the_model :
  match replay ex_cfg genesis empty_cache ex_chain with
  | Done (s, _) => impl_history_replays (c_V202EnhanceActivation ex_cfg) [] (sort_rows (dump_db s)) = true
  | _ => False
  end.
Proof. vm_compute. reflexivity. Qed.
(* ... and, by the same executable oracle, on every dump the real node produces (bin/props/c17.py). *)

(* the statuses of the example chain: executed on arrival, executed from holding, rejected *)
Example C17_status_example :
  exists s m, replay ex_cfg genesis empty_cache ex_chain = Done (s, m) /\
              status_of s 601 = [102] /\ status_of s 602 = [104] /\ status_of s 603 = [-1].
Proof. apply BlockLemmas.done_witness. vm_compute. repeat split; reflexivity. Qed.
