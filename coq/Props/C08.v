(* Props/C08.v — Sync liveness: no chain content can crash the daemon or wedge a block.
   Only statements: theorems closed by [exact] (or a line or two), examples by evaluation; proofs live in Lemmas/.

   Full statement (NOT proved for the whole of [step_block]): from every reachable state and for every
   block content [step_block] returns [Done].  Proved: the part a third party controls.  The entries of
   the transaction chain are processed to the end whatever they contain (totality of [apply_tx_block]
   and of the holding pass outside the PEG-bank era), from the invariants [hist_closed] / [bal_room]
   that every reachable state is proved to satisfy; and the exact list of failure codes that remain
   when nothing is assumed about the entries; and, for every height of the live era (from 2.0.2 on), the
   WHOLE block function: [step_block] returns [Done] under named hypotheses (C08_step_block_total), with
   the chain-level corollary.  Not covered by a totality theorem: heights below the 2.0.2 activation
   (PEG bank, legacy snapshot failure, PEG-equation SUM, factoid burns: closed eras, with the recorded
   finding on mixed bank-era batches); those are tied by the adversarial chains run through the real node. *)
From Model Require Import Examples.
From Lemmas Require Import StatusLemmas TotalityLemmas TotalityHolding TotalityInvariant TotalityRange TotalityCodes TotalityExamples TotalityMain TotalityBlockParts TotalityAdjust TotalityBlock TotalityChain TotalityBlockExamples.
Open Scope Z_scope.

(* an entry that does not decode, does not validate, or carries a key type not yet active is skipped *)
Theorem C08_invalid_entry_is_skipped_partial : forall c h s order e,
  entry_valid_at c e h = None -> apply_entry c h s order e = Ok s.
Proof. exact invalid_entry_inert. Qed.
Print Assumptions C08_invalid_entry_is_skipped_partial.

(* an entry written to the chain again — after execution, or while its first copy is pending or was
   rejected — is skipped (this is the repaired behaviour: it used to violate a UNIQUE constraint and
   wedge the block) *)
Theorem C08_executed_entry_is_skipped_partial : forall c h s order e,
  is_replay s (e_hash e) = true -> apply_entry c h s order e = Ok s.
Proof. exact replayed_entry_inert. Qed.
Theorem C08_recorded_entry_is_skipped_partial : forall c h s order e,
  hist_has s (e_hash e) = true -> apply_entry c h s order e = Ok s.
Proof. exact recorded_entry_inert. Qed.
Print Assumptions C08_recorded_entry_is_skipped_partial.

(* a transaction block consisting only of garbage is applied successfully and changes nothing *)
Theorem C08_garbage_block_is_applied_partial : forall c h s es,
  Forall (fun e => entry_valid_at c e h = None) es -> apply_tx_block c h s es = Ok s.
Proof. exact all_invalid_block_inert. Qed.
Print Assumptions C08_garbage_block_is_applied_partial.

(* Totality of the transaction-chain processing.
   [hist_closed s]: every hash with a transaction row or a holding row has a batch row (an invariant of every
   reachable state: C08_reachable_state_ok).  [bal_room s n]: every cell is >= 0 and has room for n more below
   max_int64.  [entry_wf c h e]: IF the entry validates at h, its input tickers are tickers and its signer is not
   the burn address (what the decoder and the signature check guarantee; nothing is asked of entries that do not
   validate).  [block_credit c h es]: the transfers of the valid, conversion-free batches of the block. *)

(* whatever is written on the transaction chain -- garbage, repeated hashes, overdrafts, negative amounts,
   conversions -- the block's entries are processed to the end, from every closed state with room *)
Theorem C08_tx_block_total : forall c h s es n,
  hist_closed s -> Forall (fun e => entry_wf c h e = true) es -> 0 <= n ->
  bal_room s (block_credit c h es + n) ->
  exists s', apply_tx_block c h s es = Ok s' /\ hist_closed s' /\ bal_room s' n.
Proof. exact apply_tx_block_total. Qed.
Print Assumptions C08_tx_block_total.

(* with NO hypothesis on the entries: the only failures left are these four codes; no uniqueness failure,
   no "no rates", no conversion error, no reject code escaping as an error, no panic *)
Theorem C08_tx_block_failure_codes_from_closed : forall c h es s,
  hist_closed s -> fails_within arrival_codes (apply_tx_block c h s es).
Proof. exact apply_tx_block_failures. Qed.
Print Assumptions C08_tx_block_failure_codes_from_closed.

(* the holding pass of a rated block, outside the PEG-bank era (in particular from 2.0 on), cannot fail *)
Theorem C08_holding_total_outside_bank_era : forall c cur rates avgs cm s n,
  outside_bank_era c cur -> is_empty_map rates = false -> rates_nonneg rates -> rates_nonneg avgs ->
  holding_wf_basic c cm cur (holding_window s cur) = true -> 0 <= n ->
  bal_room s (holding_credit c cm cur rates avgs (holding_window s cur) + n) ->
  exists s', apply_holding c cm cur s rates avgs = Ok s' /\ keys s' = keys s /\ bal_room s' n.
Proof. exact apply_holding_total_outside_bank_era. Qed.
Print Assumptions C08_holding_total_outside_bank_era.

(* ... in the bank era too, as long as no held batch carries a PEG request (the recorded finding lives exactly
   in the excluded case: Lemmas/TotalityExamples.v bank_era_mixed_batch_fails) *)
Theorem C08_holding_total : forall c cur rates avgs,
  is_empty_map rates = false -> rates_nonneg rates -> rates_nonneg avgs ->
  forall cm s n, holding_wf c cm cur (holding_window s cur) = true -> bank_row_ready c cur s -> 0 <= n ->
  bal_room s (holding_credit c cm cur rates avgs (holding_window s cur) + n) ->
  exists s', apply_holding c cm cur s rates avgs = Ok s' /\ keys s' = keys s /\ bal_room s' n.
Proof. exact apply_holding_total. Qed.
Print Assumptions C08_holding_total.

(* the two invariants are facts about every state the daemon can reach, not assumptions *)
Theorem C08_reachable_state_ok : forall c bs s m,
  replay c genesis empty_cache bs = Done (s, m) -> hist_closed s /\ bal_room s 0.
Proof. exact reachable_state_ok. Qed.
Print Assumptions C08_reachable_state_ok.

(* so: after ANY chain, the entries of the next block are processed to the end (given room for its transfers) *)
Theorem C08_tx_block_applies_after_any_chain : forall c bs s m h es,
  replay c genesis empty_cache bs = Done (s, m) ->
  Forall (fun e => entry_wf c h e = true) es ->
  (forall a t, get_bal (bal s) a t + block_credit c h es <= max_int64) ->
  exists s', apply_tx_block c h s es = Ok s' /\ hist_closed s' /\ bal_room s' 0.
Proof. exact C08_tx_block_applies. Qed.
Print Assumptions C08_tx_block_applies_after_any_chain.

(* hypotheses satisfiable (a 12-entry block of repeated hashes, garbage, overdrafts, negative amounts on the state
   after the example chain; the holding pass at three heights) and each one necessary: Lemmas/TotalityExamples.v *)
Check apply_tx_block_total_instance.
Check apply_holding_total_instance.
Check holding_then_block_total_instance.
Check bank_era_mixed_batch_fails.
Check burn_signer_fails.
Check full_cell_fails.

(* The whole block function, live era.
   [block_hyps c cm mem b] (Lemmas/TotalityBlock.v; [block_hypsb] is the same as one boolean) names what is asked:
   the block lies in the live era (transaction, 2.0, developer-reward and 2.0.2 activations passed); nothing is
   recorded for its height yet; the cached averages are not negative; the grader oracles answer and the winning
   records carry distinct asset names with values below 2^63; decoded batches (arriving and held) have what the
   decoder and the signature check guarantee; the synthetic hashes the block writes are fresh; every stake converts;
   and there is room below 2^63 for what the block credits (at the mint height also for the mint).  Under these NOTHING on the three chains can make the block fail: it is applied, and the
   invariants hold again. *)
Theorem C08_step_block_total : forall c cm mem b,
  hist_closed cm -> bal_room cm 0 -> block_hyps c cm mem b ->
  exists s' mem', step_block c cm mem b = Done (s', mem') /\ hist_closed s' /\ bal_room s' 0 /\
                  HistoryLemmas3.cache_nonneg mem' /\
                  (forall k, k <> b_height b -> grades s' !! k = grades cm !! k) /\
                  (forall r, In r (winners s') -> In r (winners cm) \/ fst (fst (fst (fst r))) = b_height b).
Proof. exact step_block_total. Qed.
Print Assumptions C08_step_block_total.

(* chains: strictly increasing heights, every block meeting its hypotheses in the state it finds *)
Theorem C08_replay_total : forall c bs h,
  increasing_from h bs -> chain_hyps c genesis empty_cache bs ->
  exists s m, replay c genesis empty_cache bs = Done (s, m) /\ hist_closed s /\ bal_room s 0.
Proof. exact replay_total_genesis. Qed.
Print Assumptions C08_replay_total.

(* hypotheses satisfiable on live-era blocks (unrated, rated with held conversions and hostile entries, both
   snapshot kinds, the three one-time adjustment heights); and for each excluded case the model really is Stuck:
   Lemmas/TotalityBlockExamples.v *)
Check replay_total_live_chain.
Check replay_total_activation_heights.

Example C08_example :
  (* in the example chain entry 601 appears twice in block 102 and an overdraft is attempted in 103:
     every block applies *)
  exists s m, replay ex_cfg genesis empty_cache ex_chain = Done (s, m).
Proof. apply BlockLemmas.done_exists2. vm_compute. exact I. Qed.
