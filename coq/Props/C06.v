(* Props/C06.v — At-most-once execution of an entry (replay protection).
   Only statements: theorems closed by [exact] (or a line or two), examples by evaluation; proofs live in Lemmas/. *)
From Model Require Import Examples.
From Lemmas Require Import ChainLemmas HoldingLemmas StatusLemmas HistoryLemmas HistoryLemmas2 HistoryLemmas3 TotalityChain ExecExact WindowLemmas.
Open Scope Z_scope.

(* Execution writes a relation row for the entry hash and relation rows are never deleted: once
   an entry hash counts as executed it does so in every later state, whatever the blocks contain. *)
Theorem C06_executed_stays_executed : forall c cm mem b s' mem',
  step_block c cm mem b = Done (s', mem') -> forall hs, replayed (rel cm) hs -> replayed (rel s') hs.
Proof. exact step_block_replay_monotone. Qed.
Print Assumptions C06_executed_stays_executed.

(* A conversion placed in holding is considered for execution exactly once.  A rated block [cur]
   looks at the held heights from the most recent rated height below it up to cur-1 ([window]);
   it does look at a height g in that range ... *)
Theorem C06_held_height_is_visited : forall s cur g, 0 < cur -> last_rated_below s cur <= g < cur -> In g (window s cur).
Proof. exact held_height_visited. Qed.
(* ... and once a rated height c1 lies between g and a later block c2, that block does not look at g
   any more: whatever happened to the batch at c1 (executed, rejected, dropped) is final. *)
Theorem C06_held_height_is_not_revisited : forall s2 c1 c2 g m,
  rates s2 !! c1 = Some m -> 0 <= c1 < c2 -> g < c1 -> ~ In g (window s2 c2).
Proof. exact held_height_not_revisited. Qed.
Print Assumptions C06_held_height_is_not_revisited.
(* (recorded rates are never removed — C12_rates_immutable — so "c1 is rated" stays true in every
   later state; [apply_holding] iterates over exactly this window: apply_holding_uses_window) *)

(* "Exactly once", end to end.  In any state: a held height g below some rated height lies in the window of exactly ONE rated
   height — the least rated height above g ... *)
Theorem C06_held_height_in_exactly_one_window : forall s g r0, 0 <= g -> rated s r0 -> g < r0 ->
  exists r, rated s r /\ In g (window s r) /\ forall r', rated s r' -> In g (window s r') -> r' = r.
Proof. exact held_height_in_exactly_one_window. Qed.
Print Assumptions C06_held_height_in_exactly_one_window.
(* ... and over a whole chain (heights increasing, nothing rated beforehand): among ALL blocks of the chain exactly one looks at the
   batches held at g — the block at the first rated height above g; the window that block iterates over mid-block is the window of
   the final state (recorded rates never change), and a block that ends up unrated ran no holding pass at all
   (WindowLemmas.chain_holding_pass). *)
Theorem C06_chain_held_height_exactly_one_block : forall c h0 bs s0 m0 sf mf g b0,
  increasing_from h0 bs -> (forall k, h0 <= k -> rates s0 !! k = None) -> replay c s0 m0 bs = Done (sf, mf) ->
  0 <= g -> h0 <= g + 1 -> In b0 bs -> g < b_height b0 -> rated sf (b_height b0) ->
  exists b, In b bs /\ first_rated_above sf g (b_height b) /\ b_height b <= b_height b0 /\ In g (window sf (b_height b)) /\
            forall b', In b' bs -> rated sf (b_height b') -> In g (window sf (b_height b')) -> b' = b.
Proof. exact chain_held_height_exactly_one_block. Qed.
Print Assumptions C06_chain_held_height_exactly_one_block.
Theorem C06_chain_block_runs_holding_over_the_final_window : forall c h0 s0 m0 pre b post sf mf,
  increasing_from h0 (pre ++ b :: post) -> (forall k, h0 <= k -> rates s0 !! k = None) ->
  replay c s0 m0 (pre ++ b :: post) = Done (sf, mf) -> c_TransactionConversionActivation c <= b_height b ->
  exists cm mem s' mem', replay c s0 m0 pre = Done (cm, mem) /\ step_block c cm mem b = Done (s', mem') /\ replay c s' mem' post = Done (sf, mf) /\
    ((rates sf !! b_height b = None /\ ~ block_rated c cm b /\ rates s' = rates cm)
     \/ (exists m s1 s2, rates sf !! b_height b = Some m /\ block_rated c cm b /\ rates cm !! b_height b = None /\
          is_empty_map m = false /\ rates s1 = <[b_height b := m]> (rates cm) /\
          holding_pass_over c cm (b_height b) s1 m (fst (get_averages cm (c_AveragePeriod c) mem (last_rated_below sf (b_height b)))) (window sf (b_height b)) = Ok s2 /\
          window s1 (b_height b) = window sf (b_height b) /\
          forall g, In g (window sf (b_height b)) <-> 0 <= g /\ first_rated_above sf g (b_height b))).
Proof. exact chain_holding_pass. Qed.

(* An entry written to the chain again has no effect, whether its first copy was executed ... *)
Theorem C06_executed_entry_again_is_inert : forall c h s order e,
  is_replay s (e_hash e) = true -> apply_entry c h s order e = Ok s.
Proof. exact replayed_entry_inert. Qed.
(* ... or is still pending in holding, or was rejected (it has a history row) *)
Theorem C06_recorded_entry_again_is_inert : forall c h s order e,
  hist_has s (e_hash e) = true -> apply_entry c h s order e = Ok s.
Proof. exact recorded_entry_inert. Qed.
Print Assumptions C06_recorded_entry_again_is_inert.
(* and on the holding path a batch whose hash counts as executed is skipped *)
Theorem C06_executed_held_batch_is_skipped : forall c cur rates avgs s e hh txs,
  entry_valid_at c e hh = Some txs -> ((c_V20HeightActivation c <=? cur) && has_peg_conversion txs) = false ->
  (exists t, entry_valid_at c e cur = Some t) -> is_replay s (e_hash e) = true ->
  apply_held c cur rates avgs s e hh = Ok (s, false).
Proof. exact replayed_held_inert. Qed.

(* Executing a (non-empty) batch always leaves relation rows: from then on the entry hash counts as a replay
   (and stays one: C06_executed_stays_executed), so no later copy of it and no later visit of the holding
   table can execute it again. *)
Theorem C06_execution_marks_the_hash : forall c h hs rates avgs t txs idx s s',
  record_txs c h hs rates avgs idx (t :: txs) s = Ok s' -> is_replay s' hs = true.
Proof. exact record_txs_replayed. Qed.
Print Assumptions C06_execution_marks_the_hash.

(* At most once, for every chain: after ANY chain (no conversions into PEG, distinct batch hashes) every balance
   cell is the sum over the history rows of the EXECUTED entries, each row counted once -- an entry that had
   moved the ledger twice would break the equation.  (The invariant carried through the proof contains the
   at-most-once step explicitly: a held batch whose status counts as executed has relation rows, so the replay
   check stops it: Lemmas/HistoryLemmas3.v G_apply_held.) *)
Theorem C06_every_entry_counts_once : forall c bs s m,
  forallb block_okb bs = true ->
  replay c genesis empty_cache bs = Done (s, m) ->
  NoDup (map hb_hash (hist s)) ->
  forall a t, special_addr a = false -> get_bal (bal s) a t = hist_sum c s a t.
Proof. exact replay_accounts. Qed.
Print Assumptions C06_every_entry_counts_once.

Example C06_example :
  exists s m, replay ex_cfg genesis empty_cache ex_chain = Done (s, m) /\
              replayed (rel s) 601 /\ replayed (rel s) 602 /\ ~ replayed (rel s) 603 /\
              get_bal (bal s) bob 23 = 30.   (* entry 601 appears twice in block 102 and is executed once *)
Proof. apply BlockLemmas.done_witness. vm_compute. repeat split; try reflexivity; auto. Qed.
