(* Props/C01.v — Deterministic replay: same chain, same ledger.
   Only statements: theorems closed by [exact] (or a line or two), examples by evaluation; proofs live in Lemmas/. *)
From Model Require Import Examples.
From Lemmas Require Import PayoutLemmas SitesC01.
From Model Require Import SitesSpec.
From Gen Require Import Consts Sites.
Open Scope Z_scope.

(* The model of a block is a function: the replay of a chain is determined by the chain (the model
   has no hidden input: no clock, no iteration order).  What has to be shown is that the places
   where the CODE iterates over a Go map or sorts cannot make its result depend on the order. *)

(* (1) the proportional payout with dust (staking payouts, PEG bank yields) is a function of the SET
   of requests: every enumeration of the same map gives every txid the same payout; the dust goes
   to the unique maximum under (amount, then txid order) *)
Theorem C01_payouts_order_independent : forall bank (a b : requests),
  Permutation.Permutation a b -> List.NoDup (map fst a) -> Permutation.Permutation (payouts bank a) (payouts bank b).
Proof. exact payouts_perm. Qed.
Print Assumptions C01_payouts_order_independent.
Theorem C01_dust_recipient_unique : forall (a b : requests),
  Permutation.Permutation a b -> List.NoDup (map fst a) -> dust_winner a = dust_winner b.
Proof. exact dust_winner_perm. Qed.
Print Assumptions C01_dust_recipient_unique.

(* (1b) the staking list: stakes are collected from a Go map and sorted; since the repair equal stakes
   are ordered by address, so the sorted list — whose positions become the payout txids and decide
   the dust recipient — is the same for every enumeration of the map *)
Theorem C01_staking_order_independent : forall (a b : list (addr * Z)),
  Permutation.Permutation a b -> List.NoDup (map fst a) -> sort_stakes a = sort_stakes b.
Proof. exact sort_stakes_order_independent. Qed.
Print Assumptions C01_staking_order_independent.

(* (2) the source has no other iteration over a map, and no other sort, in the code reachable from
   block application than the ones reviewed (regenerated from /repo on every run) *)
Theorem C01_no_unreviewed_map_iteration : forallb (fun k => mem2 k expected_map_ranges) map_range_keys = true.
Proof. exact map_ranges_expected. Qed.
Theorem C01_no_unreviewed_sort : forallb (fun k => mem2 k expected_sort_calls) sort_call_keys = true.
Proof. exact sort_calls_expected. Qed.

Example C01_example :
  payouts 10 [((1, 0), 7); ((2, 0), 7); ((1, 1), 7)] = [((1, 0), 4); ((2, 0), 3); ((1, 1), 3)] /\
  Permutation.Permutation (payouts 10 [((2, 0), 7); ((1, 1), 7); ((1, 0), 7)]) [((1, 0), 4); ((2, 0), 3); ((1, 1), 3)].
Proof.
  split; [vm_compute; reflexivity|]. vm_compute.
  apply Permutation.perm_trans with [((1, 1), 3); ((2, 0), 3); ((1, 0), 4)]; [apply Permutation.perm_swap|].
  apply Permutation.perm_trans with [((1, 1), 3); ((1, 0), 4); ((2, 0), 3)]; [apply Permutation.perm_skip, Permutation.perm_swap|].
  apply Permutation.perm_trans with [((1, 0), 4); ((1, 1), 3); ((2, 0), 3)]; [apply Permutation.perm_swap|].
  apply Permutation.perm_skip, Permutation.perm_swap.
Qed.
