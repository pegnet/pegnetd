(* Props/C09.v — Restart independence: results do not depend on where the daemon was restarted.
   Only statements: theorems closed by [exact] (or a line or two), examples by evaluation; proofs live in Lemmas/. *)
From Model Require Import Examples.
From Lemmas Require Import RestartLemmas.
Open Scope Z_scope.

(* Whatever two caches are in memory — as long as each was produced by earlier calls on this chain
   or is empty, as after a restart — and wherever the daemon is restarted (cache dropped) while
   the rest of the chain is replayed, the resulting database is the same.  For every chain whose
   heights increase (the sync loop applies Synced+1), every set of restart heights R1, R2. *)
Theorem C09_restart_independent : forall (c : cfg) (bs : list block) (hn : Z) (cm : db) (mem1 mem2 : avgcache) (R1 R2 : list Z),
  0 < hn -> cache_ok c cm mem1 hn -> cache_ok c cm mem2 hn -> heights_from hn bs ->
  run_chain_restarts c R1 cm mem1 bs = run_chain_restarts c R2 cm mem2 bs.
Proof. exact restart_independent. Qed.
Print Assumptions C09_restart_independent.

(* In particular: any number of restarts anywhere = one continuous run, from a fresh start. *)
Theorem C09_restarts_do_not_matter : forall (c : cfg) (bs : list block) (hn : Z) (cm : db) (R : list Z),
  0 < hn -> heights_from hn bs ->
  run_chain_restarts c R cm empty_cache bs = run_chain_restarts c [] cm empty_cache bs.
Proof. exact restarts_do_not_matter. Qed.
Print Assumptions C09_restarts_do_not_matter.

(* Pricing: the averages a block uses are a function of the committed database alone. *)
Theorem C09_averages_from_database_only : forall (c : cfg) (cm : db) (mem : avgcache) (hn hq : Z),
  cache_ok c cm mem hn -> fst (get_averages cm (c_AveragePeriod c) mem hq) = compute_avgs cm (c_AveragePeriod c) hq.
Proof. exact get_averages_ok. Qed.
Print Assumptions C09_averages_from_database_only.

(* The machine before the repair (incremental append trimmed by count, reload by height window)
   did depend on the cache: AveragePeriod 4, rated heights 1,2,3,5,6,7 — a continuously running
   node and a freshly started one disagree on the average at height 7 (525 vs 600). *)
Definition legacy_db : db :=
  set_rates empty_db (list_to_map (map (fun hv => (fst hv, {[ 2 := snd hv ]})) [(1, 100); (2, 200); (3, 300); (5, 500); (6, 600); (7, 700)])).
Definition legacy_continuous : avgcache_legacy :=
  fold_left (fun m h => snd (get_averages_legacy legacy_db 4 m h)) [1; 2; 3; 5; 6] empty_cache_legacy.
Example C09_legacy_machine_depended_on_the_cache :
  fst (get_averages_legacy legacy_db 4 legacy_continuous 7) !! 2 = Some 525 /\
  fst (get_averages_legacy legacy_db 4 empty_cache_legacy 7) !! 2 = Some 600 /\
  fst (get_averages legacy_db 4 empty_cache 7) !! 2 = Some 600.
Proof. vm_compute. repeat split; reflexivity. Qed.

(* non-vacuity: the example chain satisfies the hypotheses and restarting before every block
   changes nothing *)
Example C09_example :
  heights_from 101 ex_chain /\
  run_chain_restarts ex_cfg [101; 102; 103; 104] genesis empty_cache ex_chain =
  run_chain_restarts ex_cfg [] genesis empty_cache ex_chain /\
  (exists s, run_chain_restarts ex_cfg [] genesis empty_cache ex_chain = Done s).
Proof.
  assert (H : heights_from 101 ex_chain) by (cbn; lia).
  split; [exact H|]. split; [apply (restarts_do_not_matter ex_cfg ex_chain 101); [reflexivity|exact H]|].
  apply BlockLemmas.done_exists. vm_compute. exact I.
Qed.
