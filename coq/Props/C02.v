(* Props/C02.v — Per-block atomicity and crash consistency of the balance store.
   Only statements: theorems closed by [exact] (or a line or two), examples by evaluation; proofs live in Lemmas/. *)
From Model Require Import Examples Sync SitesSpec.
From Lemmas Require Import SyncLemmas ChainLemmas RestartLemmas SitesC02.
From Gen Require Import Consts Sites.
From Coq Require Import String.
Open Scope list_scope.
Open Scope Z_scope.

(* Whatever happens between two commits — an attempt that fails at any statement or request and is
   rolled back, the process killed at any point before COMMIT returns or right after it, any
   number of restarts, API requests in between — the committed database is exactly the
   uninterrupted replay of a prefix of the chain (nothing of a later block, nothing missing), and
   the rest of the chain is still to be applied in order.  For every chain with increasing heights
   and every sequence of such events (the transitions are in Model/Sync.v). *)
Theorem C02_database_is_always_a_replayed_prefix : forall c chain h0 n todo,
  0 < h0 -> heights_from h0 chain ->
  reach c ({| n_db := genesis; n_mem := empty_cache |}, chain) (n, todo) ->
  exists done_ m, chain = done_ ++ todo /\ replay c genesis empty_cache done_ = Done (n_db n, m).
Proof. exact loop_consistent. Qed.
Print Assumptions C02_database_is_always_a_replayed_prefix.

(* Each applied block records its own height, once: the sync height becomes the block's height and
   pn_sync_version gains exactly that height (re-applying a height fails on the primary key). *)
Theorem C02_height_recorded_once : forall c cm mem b s' mem',
  step_block c cm mem b = Done (s', mem') ->
  synced s' = Some (b_height b) /\ versions cm !! (b_height b) = None /\
  versions s' = <[b_height b := PegnetdSyncVersion]> (versions cm).
Proof. exact step_block_synced. Qed.
Print Assumptions C02_height_recorded_once.

(* The shape of the transitions rests on two facts about the source, re-checked on every run
   against the tables regenerated from /repo: every write reachable from the block application
   goes through the block's sql.Tx, and the only reads that bypass it (and therefore see the
   committed database) are the reviewed ones. *)
Theorem C02_every_block_write_is_on_the_transaction :
  forall r, In r effective_sql -> is_write r = true -> eff_handle r = "tx"%string /\ eff_origin r = "root"%string.
Proof. exact sync_writes_on_tx_forall. Qed.
Theorem C02_pool_reads_are_the_reviewed_ones :
  forallb (fun r => mem (eff_origin r) expected_pool_readers) (filter on_pool effective_sql) = true.
Proof. exact sync_pool_reads_expected. Qed.

(* ... and on SQLite's atomic commit, which needs the rollback journal (or WAL) on disk and synchronous
   writes: the PRAGMA values of the connection the code opens, regenerated on every run *)
Theorem C02_journal_is_on_disk : check_journal_on_disk = true.
Proof. exact journal_on_disk. Qed.
Theorem C02_synchronous_writes : check_synchronous_on = true.
Proof. exact synchronous_on. Qed.
(* the mark of a synced height is a plain INSERT under PRIMARY KEY(height): committing a height twice is refused *)
Theorem C02_height_mark_is_a_plain_insert : check_height_mark_plain_insert = true.
Proof. exact height_mark_plain_insert. Qed.

Example C02_example :
  (* a run of the example chain with a failed attempt, a crash and an API request thrown in *)
  exists n, reach ex_cfg ({| n_db := genesis; n_mem := empty_cache |}, ex_chain) (n, skipn 2 ex_chain) /\
            get_bal (bal (n_db n)) bob 23 = 30.
Proof.
  pose (b0 := nth 0 ex_chain (ex_block 0 None None [])). pose (b1 := nth 1 ex_chain (ex_block 0 None None [])).
  destruct (BlockLemmas.done_witness (step_block ex_cfg genesis empty_cache b0)
              (fun s1 _ => match step_block ex_cfg s1 empty_cache b1 with Done (s2, _) => get_bal (bal s2) bob 23 = 30 | _ => False end))
    as (s1 & m1 & E1 & H); [vm_compute; reflexivity|].
  apply (BlockLemmas.done_witness _ (fun s2 _ => get_bal (bal s2) bob 23 = 30)) in H as (s2 & m2 & E2 & Hb).
  exists {| n_db := s2; n_mem := m2 |}. split.
  - eapply r_step; [eapply r_step; [eapply r_step; [eapply r_step; [apply r_refl|]|]|]|].
    + (* a failed attempt at block 101 *) apply (t_rollback ex_cfg _ _ _ empty_cache). left; reflexivity.
    + (* block 101 commits *) apply t_commit. exact E1.
    + (* the process is killed and restarted *) apply t_crash.
    + (* block 102 commits *) cbn [n_db n_mem]. apply t_commit. exact E2.
  - exact Hb.
Qed.
