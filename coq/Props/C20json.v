(* Props/C20json.v — Canonical encoding of FAT-2 batch contents (the JSON part of C20).
   Only statements: theorems closed by [exact] (or a line or two), examples by evaluation; proofs live in Lemmas/CodecLemmas.v.

   (a) accepted_is_canonical is proved at full strength, for ALL byte strings and every base58
   oracle: whatever UnmarshalJSON + ValidData accept parses to an object with exactly the
   members version (the literal 1) and transactions (a non-empty array); every transaction has
   exactly input and one of transfers (non-empty array) / conversion, plus optional metadata;
   every tuple exactly address, amount (and type); no unknown and no duplicate key at any level;
   tickers written exactly as one of the 62 names.  The tolerated variations are the ones written
   into [canon_*] in Model/Codec.v and nothing else: ASCII case of key letters, member order,
   inter-token white space, escapes inside an address string, the literal null in place of an
   address or an amount (decoded as the zero address / 0), arbitrary metadata values, and --
   below the JSON layer -- alternative base58 spellings of one address (oracle; DESIGN.md section 15).
   (b) the round trip decode (encode b) = Some b is proved in Props/C20roundtrip.v (parser round
   trip parse_json (print j) = Some j included); Model.Codec.encode is in addition compared with
   json.Marshal, and Go's own re-encoding is re-decoded, on every accepted case of the
   correspondence run (Corr.Codec.json_agrees / json_canonical_on). *)
From Coq Require Import ZArith List Bool.
From Model Require Import Codec Db.
From Lemmas Require Import CodecLemmas.
From Gen Require Import Consts.
Import ListNotations.
Open Scope Z_scope.

(* The heart: for field names that are pairwise different lower-case ASCII words, what the
   struct decoder accounts for (last member per field, name length + 4 + raw value length) never
   exceeds the real length of the members, and equality forces the canonical member shape. *)
Theorem C20_length_accounting : forall names : list bytes,
  NoDup names -> Forall plain_name names -> forall ms,
  (asum names ms <= wsum ms)%nat /\ (asum names ms = wsum ms -> canon_members names ms = true).
Proof. exact asum_wsum. Qed.
Print Assumptions C20_length_accounting.

(* a raw key that encoding/json matches to a field name (after unescaping and Unicode case
   folding, U+017F and U+212A included) is at least as long as the name; equal length only for
   an ASCII-case variant *)
Theorem C20_matched_key_length : forall name raw, plain_name name -> key_is name raw = true ->
  (length name <= length raw)%nat /\ (length name = length raw -> lower_key raw = name).
Proof. exact key_is_length. Qed.
Print Assumptions C20_matched_key_length.

(* the parser only keeps well-formed raw texts (numbers in JSON syntax, strings without bare quotes) *)
Theorem C20_parser_keeps_wellformed : forall s j, parse_json s = Some j -> wf_jv j = true.
Proof. exact parse_json_wf. Qed.
Print Assumptions C20_parser_keeps_wellformed.

(* level by level, on parsed values *)
Theorem C20_tuple_canonical : forall addr_of_text j tr, wf_jv j = true ->
  decode_tuple addr_of_text j = Some tr -> canon_tuple j = true.
Proof. exact decode_tuple_canonical. Qed.
Print Assumptions C20_tuple_canonical.

Theorem C20_input_canonical : forall addr_of_text j a n t, wf_jv j = true ->
  decode_typed_tuple addr_of_text j = Some (a, n, t) -> 0 < t ->
  canon_input j = true /\ t < PTickerMax /\ 0 <= n <= max_uint64.
Proof. exact decode_typed_tuple_canonical. Qed.
Print Assumptions C20_input_canonical.

Theorem C20_transaction_canonical : forall addr_of_text j t, wf_jv j = true ->
  decode_transaction addr_of_text j = Some t -> tx_validate t = true -> canon_tx j = true.
Proof. exact decode_transaction_canonical. Qed.
Print Assumptions C20_transaction_canonical.

Theorem C20_batch_canonical : forall addr_of_text j b, wf_jv j = true ->
  decode_batch_j addr_of_text j = Some b -> valid_data b = true -> canon_batch j = true.
Proof. exact decode_batch_canonical. Qed.
Print Assumptions C20_batch_canonical.

(* (a) for every byte string offered as batch content *)
Theorem C20_accepted_is_canonical : forall (addr_of_text : bytes -> option Z) (bytes : bytes) (b : batch),
  decode_batch addr_of_text bytes = Some b -> valid_data b = true -> canonical_bytes bytes = true.
Proof. exact accepted_is_canonical. Qed.
Print Assumptions C20_accepted_is_canonical.

(* what Validate establishes for every transaction of an accepted batch *)
Theorem C20_tx_validate_facts : forall t, tx_validate t = true ->
  tx_addr t <> Fat2CoinbaseAddress /\
  0 < tx_type t < PTickerMax /\
  ( (tx_transfers t <> [] /\ tx_conv t <= 0 /\ sum_transfers (tx_transfers t) = tx_amt t)
    \/ (tx_transfers t = [] /\ tx_conv t <> 0 /\ tx_conv t <> tx_type t /\
        (0 < tx_conv t < PTickerMax \/ tx_amt t = 0)) ).
Proof. exact tx_validate_spec. Qed.
Print Assumptions C20_tx_validate_facts.

Theorem C20_valid_data_facts : forall b, valid_data b = true ->
  b_version b = 1 /\ b_txs b <> [] /\
  Forall (fun t => tx_validate t = true) (b_txs b) /\
  exists a, Forall (fun t => tx_addr t = a) (b_txs b).
Proof. exact valid_data_spec. Qed.
Print Assumptions C20_valid_data_facts.

Theorem C20_input_amounts_within_int64 : forall b, inputs_within_int64 b = true ->
  Forall (fun t => tx_amt t <= max_int64) (b_txs b).
Proof. exact inputs_within_int64_spec. Qed.
Print Assumptions C20_input_amounts_within_int64.

Theorem C20_pegtx_no_peg_conversion : forall b, validate_peg_tx b = true ->
  valid_data b = true /\ Forall (fun t => tx_conv t <> PTickerPEG) (b_txs b).
Proof. exact validate_peg_tx_spec. Qed.
Print Assumptions C20_pegtx_no_peg_conversion.

(* non-vacuity *)
Definition ex_addr_text : bytes := [70; 65; 51; 90; 116; 71; 84; 117; 78; 116; 66; 68; 117; 78; 67; 119; 112; 78; 86; 110; 105; 80; 76; 74; 118; 49; 103; 114; 90; 99; 122; 110; 115; 90; 75; 122; 109; 100; 52; 70; 90; 118; 50; 84; 100; 107; 99; 101; 66; 50; 101; 102].
Definition ex_oracle (t : bytes) : option Z := if beq t ex_addr_text then Some 77 else None.
(* {"version":1,"transactions":[{"input":{"address":"FA3ZtGTuNtBDuNCwpNVniPLJv1grZcznsZKzmd4FZv2TdkceB2ef","amount":5,"type":"pUSD"},"conversion":"PEG"}]} *)
Definition ex_good : bytes := [123; 34; 118; 101; 114; 115; 105; 111; 110; 34; 58; 49; 44; 34; 116; 114; 97; 110; 115; 97; 99; 116; 105; 111; 110; 115; 34; 58; 91; 123; 34; 105; 110; 112; 117; 116; 34; 58; 123; 34; 97; 100; 100; 114; 101; 115; 115; 34; 58; 34; 70; 65; 51; 90; 116; 71; 84; 117; 78; 116; 66; 68; 117; 78; 67; 119; 112; 78; 86; 110; 105; 80; 76; 74; 118; 49; 103; 114; 90; 99; 122; 110; 115; 90; 75; 122; 109; 100; 52; 70; 90; 118; 50; 84; 100; 107; 99; 101; 66; 50; 101; 102; 34; 44; 34; 97; 109; 111; 117; 110; 116; 34; 58; 53; 44; 34; 116; 121; 112; 101; 34; 58; 34; 112; 85; 83; 68; 34; 125; 44; 34; 99; 111; 110; 118; 101; 114; 115; 105; 111; 110; 34; 58; 34; 80; 69; 71; 34; 125; 93; 125].
(* the same batch with upper-case keys, members reordered, white space and an escaped address character *)
Definition ex_variation : bytes := [32; 123; 34; 84; 82; 65; 78; 83; 65; 67; 84; 73; 79; 78; 83; 34; 58; 32; 91; 123; 34; 99; 111; 110; 118; 101; 114; 115; 105; 111; 110; 34; 58; 34; 80; 69; 71; 34; 44; 34; 73; 110; 112; 117; 116; 34; 58; 123; 34; 116; 121; 112; 101; 34; 58; 34; 112; 85; 83; 68; 34; 44; 34; 97; 109; 111; 117; 110; 116; 34; 58; 53; 44; 34; 97; 100; 100; 114; 101; 115; 115; 34; 58; 34; 92; 117; 48; 48; 52; 54; 65; 51; 90; 116; 71; 84; 117; 78; 116; 66; 68; 117; 78; 67; 119; 112; 78; 86; 110; 105; 80; 76; 74; 118; 49; 103; 114; 90; 99; 122; 110; 115; 90; 75; 122; 109; 100; 52; 70; 90; 118; 50; 84; 100; 107; 99; 101; 66; 50; 101; 102; 34; 125; 125; 93; 44; 10; 34; 118; 101; 114; 115; 105; 111; 110; 34; 58; 49; 125].
(* type dropped and 28 junk bytes added: the length check passes (ticker 0), Validate refuses *)
Definition ex_compensated : bytes := [123; 34; 118; 101; 114; 115; 105; 111; 110; 34; 58; 49; 44; 34; 116; 114; 97; 110; 115; 97; 99; 116; 105; 111; 110; 115; 34; 58; 91; 123; 34; 105; 110; 112; 117; 116; 34; 58; 123; 34; 97; 100; 100; 114; 101; 115; 115; 34; 58; 34; 70; 65; 51; 90; 116; 71; 84; 117; 78; 116; 66; 68; 117; 78; 67; 119; 112; 78; 86; 110; 105; 80; 76; 74; 118; 49; 103; 114; 90; 99; 122; 110; 115; 90; 75; 122; 109; 100; 52; 70; 90; 118; 50; 84; 100; 107; 99; 101; 66; 50; 101; 102; 34; 44; 34; 97; 109; 111; 117; 110; 116; 34; 58; 53; 44; 34; 120; 34; 58; 34; 120; 120; 120; 120; 120; 120; 120; 120; 120; 120; 120; 120; 120; 120; 120; 120; 120; 120; 120; 120; 120; 34; 125; 44; 34; 99; 111; 110; 118; 101; 114; 115; 105; 111; 110; 34; 58; 34; 80; 69; 71; 34; 125; 93; 125].
Definition ex_duplicate : bytes := [123; 34; 118; 101; 114; 115; 105; 111; 110; 34; 58; 49; 44; 34; 118; 101; 114; 115; 105; 111; 110; 34; 58; 49; 44; 34; 116; 114; 97; 110; 115; 97; 99; 116; 105; 111; 110; 115; 34; 58; 91; 123; 34; 105; 110; 112; 117; 116; 34; 58; 123; 34; 97; 100; 100; 114; 101; 115; 115; 34; 58; 34; 70; 65; 51; 90; 116; 71; 84; 117; 78; 116; 66; 68; 117; 78; 67; 119; 112; 78; 86; 110; 105; 80; 76; 74; 118; 49; 103; 114; 90; 99; 122; 110; 115; 90; 75; 122; 109; 100; 52; 70; 90; 118; 50; 84; 100; 107; 99; 101; 66; 50; 101; 102; 34; 44; 34; 97; 109; 111; 117; 110; 116; 34; 58; 53; 44; 34; 116; 121; 112; 101; 34; 58; 34; 112; 85; 83; 68; 34; 125; 44; 34; 99; 111; 110; 118; 101; 114; 115; 105; 111; 110; 34; 58; 34; 80; 69; 71; 34; 125; 93; 125].

Example C20_example_accepted :
  option_map valid_data (decode_batch ex_oracle ex_good) = Some true /\ canonical_bytes ex_good = true.
Proof. vm_compute. split; reflexivity. Qed.
Example C20_example_variation_accepted :
  decode_batch ex_oracle ex_variation = decode_batch ex_oracle ex_good /\ canonical_bytes ex_variation = true.
Proof. vm_compute. split; reflexivity. Qed.
Example C20_example_length_compensation_rejected_by_validate :
  option_map valid_data (decode_batch ex_oracle ex_compensated) = Some false /\ canonical_bytes ex_compensated = false.
Proof. vm_compute. split; reflexivity. Qed.
Example C20_example_duplicate_key_rejected : decode_batch ex_oracle ex_duplicate = None.
Proof. vm_compute. reflexivity. Qed.
