(* Props/C04.v — Supply conservation: value is created or destroyed only by protocol events.
   Only statements: theorems closed by [exact] (or a line or two), examples by evaluation; proofs live in Lemmas/. *)
From Model Require Import Examples.
From Lemmas Require Import DbLemmas SupplyLemmas RewardLemmas HistoryLemmas HistoryLemmas2 HistoryLemmas3.
From Gen Require Import Consts.
Open Scope Z_scope.

(* Only AddToBalance / SubFromBalance change a balance, and by exactly their amount. *)
Theorem C04_add_creates_exactly : forall s a t v s' t',
  add_to_balance s a t v = Ok s' -> supply s' t' = supply s t' + (if t =? t' then v else 0).
Proof. exact supply_add. Qed.
Print Assumptions C04_add_creates_exactly.
Theorem C04_sub_destroys_exactly : forall s a t v s' t',
  sub_from_balance s a t v = SubOk s' -> supply s' t' = supply s t' - (if t =? t' then v else 0).
Proof. exact supply_sub. Qed.
Print Assumptions C04_sub_destroys_exactly.

(* Recording a batch changes the supply of every asset by exactly the sum of its transactions'
   events: each transfer -input + (outputs - outputs to the burn address), each conversion -input of
   the source and +floor(in*src/dst) of the destination (PEG requests of the bank era: the input only,
   the yield is issued by the bank pass).  For every batch, every state, every asset. *)
Theorem C04_batch_supply_delta : forall c h hs rates avgs txs t' idx s s',
  record_txs c h hs rates avgs idx txs s = Ok s' ->
  supply s' t' = supply s t' + txs_delta c h rates avgs txs t'.
Proof. exact supply_record_txs. Qed.
Print Assumptions C04_batch_supply_delta.

(* A transfer moves value without creating or destroying any: if the outputs add up to the input
   (the decoder guarantees it) and none goes to the burn address, no asset's supply changes. *)
Theorem C04_transfer_conserves : forall c h rates avgs t t',
  is_conversion t = false -> is_peg_request t = false ->
  sum_out (tx_transfers t) = tx_amt t -> burned_out c h (tx_transfers t) = 0 ->
  tx_delta c h rates avgs t t' = 0.
Proof. exact transfer_conserves. Qed.
Print Assumptions C04_transfer_conserves.

(* Mining / staking rewards and FCT burns credit exactly the decided amounts, to the named
   addresses, and touch nothing else. *)
Theorem C04_rewards_exact : forall ts ws s s' a t,
  pay_winners s ts ws = Ok s' ->
  get_bal (bal s') a t = get_bal (bal s) a t + (if t =? PTickerPEG then owed ws a else 0).
Proof. exact pay_winners_exact. Qed.
Print Assumptions C04_rewards_exact.
Theorem C04_burns_exact : forall h fs s s' a t,
  apply_factoid_block h s fs = Ok s' ->
  get_bal (bal s') a t = get_bal (bal s) a t + (if t =? PTickerFCT then burned_by fs a else 0).
Proof. exact factoid_block_exact. Qed.
Print Assumptions C04_burns_exact.

(* Chain level: after EVERY chain, every balance cell outside the three special addresses is exactly the sum of
   what the recorded, executed history rows stand for (transfers move, conversions debit the input and credit the
   converted amount, coinbase rows are the rewards / developer / staking payouts, burn rows the burnt FCT): no
   value exists that a recorded protocol event did not create, and none disappeared without one.  Hypotheses as
   for C17_history_replays_every_chain (no conversion into PEG in the chain; distinct batch-row hashes). *)
Theorem C04_every_cell_is_accounted_for : forall c bs s m,
  forallb block_okb bs = true ->
  replay c genesis empty_cache bs = Done (s, m) ->
  NoDup (map hb_hash (hist s)) ->
  forall a t, special_addr a = false -> get_bal (bal s) a t = hist_sum c s a t.
Proof. exact replay_accounts. Qed.
Print Assumptions C04_every_cell_is_accounted_for.

(* non-vacuity: in the example chain 100 pFCT are created by the burn, 20 pFCT destroyed and 80 pUSD
   created by the conversion, 5 PEG by the miner reward; the transfer changes no supply *)
Example C04_example :
  exists s m, replay ex_cfg genesis empty_cache ex_chain = Done (s, m) /\
              supply s PTickerFCT = 80 /\ supply s PTickerUSD = 80 /\ supply s PTickerPEG = 5.
Proof. apply BlockLemmas.done_witness. vm_compute. repeat split; reflexivity. Qed.
