(* Props/C05.v — Spend authorisation, entry level: what fat2.TransactionBatch.ValidExtIDs
   (fat103.Validate + factom.ValidateRCD) accepts.  Only statements: theorems closed by [exact] (or a line or two), examples by evaluation;
   proofs live in Lemmas/ExtIDsLemmas.v.  The signature check and the RCD hash are the section
   variables of Model/Codec.v: after the section closed they are explicit arguments, so every
   theorem below holds for EVERY signature predicate and hash function.
   Refuted/C05.v holds the statements that are false of the faithful model. *)
From Coq Require Import ZArith List Bool.
From Model Require Import Codec Db.
From Lemmas Require Import CodecLemmas ExtIDsLemmas.
From Gen Require Import Consts.
Import ListNotations.
Open Scope Z_scope.

(* 0 | salt | chain | content determines salt, chain id and content, for chain ids whose first
   byte is not a digit (the salt may be written +N, 0N, 000N: ParseInt accepts those, so it is
   the SALT TEXT that is determined, not only its value) *)
Theorem C05_message_injective : forall salt chain content salt' chain' content',
  salt_syntax salt -> salt_syntax salt' ->
  length chain = 32%nat -> length chain' = 32%nat ->
  (forall c r, chain = c :: r -> is_digit c = false) ->
  (forall c r, chain' = c :: r -> is_digit c = false) ->
  [48] ++ salt ++ chain ++ content = [48] ++ salt' ++ chain' ++ content' ->
  salt = salt' /\ chain = chain' /\ content = content'.
Proof. exact message_injective. Qed.
Print Assumptions C05_message_injective.

(* the transaction chain satisfies the premise *)
Example C05_transaction_chain_first_byte_not_digit : is_digit TransactionChainFirstByte = false.
Proof. vm_compute. reflexivity. Qed.

(* accepted => exactly three ExtIDs: salt within the window, an RCD hashing to the input
   address, of an enabled type, with the right sizes, and a signature that verifies on
   0 | salt | chain | content (RCD-e: on the first 64 of the 65 signature bytes) *)
Theorem C05_accepted_extids_shape : forall sig_ok rcd_hash act h inputs a e,
  inputs <> [] -> Forall (fun x => x = a) inputs ->
  valid_extids sig_ok rcd_hash act h inputs e = true ->
  exists salt rcd sig sec,
    re_extids e = [salt; rcd; sig] /\
    parse_int64 salt = Some sec /\ - salt_window <= re_ts e - sec <= salt_window /\
    rcd_hash rcd = a /\
    ( (exists pk, rcd = 1 :: pk /\ length pk = 32%nat /\ length sig = 64%nat /\
                  sig_ok 1 pk (signed_message 0 e) sig = true)
      \/ (exists pk, rcd = 14 :: pk /\ rcde_enabled act h = true /\ length pk = 64%nat /\
                     length sig = 65%nat /\ sig_ok 14 pk (signed_message 0 e) (firstn 64 sig) = true) ).
Proof. exact valid_extids_single_spec. Qed.
Print Assumptions C05_accepted_extids_shape.

Theorem C05_invalid_extids_rejected : forall sig_ok rcd_hash act h inputs a e,
  inputs <> [] -> Forall (fun x => x = a) inputs ->
  ( length (re_extids e) <> 3%nat
    \/ (forall salt, nth_error (re_extids e) 0 = Some salt -> parse_int64 salt = None)
    \/ (exists salt sec, nth_error (re_extids e) 0 = Some salt /\ parse_int64 salt = Some sec /\
                         salt_window < Z.abs (re_ts e - sec))
    \/ (exists rcd, nth_error (re_extids e) 1 = Some rcd /\
                    (rcd = [] \/ (exists ty pk, rcd = ty :: pk /\ ty <> 1 /\ ty <> 14)
                     \/ (exists pk, rcd = 1 :: pk /\ length pk <> 32%nat)
                     \/ (exists pk, rcd = 14 :: pk /\ (length pk <> 64%nat \/ rcde_enabled act h = false))
                     \/ rcd_hash rcd <> a))
    \/ (exists rcd sig, nth_error (re_extids e) 1 = Some rcd /\ nth_error (re_extids e) 2 = Some sig /\
                        ( (exists pk, rcd = 1 :: pk /\ (length sig <> 64%nat \/ sig_ok 1 pk (signed_message 0 e) sig = false))
                          \/ (exists pk, rcd = 14 :: pk /\ (length sig <> 65%nat \/
                                sig_ok 14 pk (signed_message 0 e) (firstn 64 sig) = false)))) ) ->
  valid_extids sig_ok rcd_hash act h inputs e = false.
Proof. exact invalid_extids_rejected. Qed.
Print Assumptions C05_invalid_extids_rejected.

(* the exact inequality of the window: |timestamp - salt| <= 43200 s, both ends accepted *)
Theorem C05_salt_window : forall sig_ok rcd_hash act h inputs a e,
  inputs <> [] -> Forall (fun x => x = a) inputs ->
  valid_extids sig_ok rcd_hash act h inputs e = true ->
  exists salt sec, nth_error (re_extids e) 0 = Some salt /\ parse_int64 salt = Some sec /\
                   Z.abs (re_ts e - sec) <= 43200.
Proof. exact salt_window_accepted. Qed.
Print Assumptions C05_salt_window.

(* RCD-e needs height > activation (or a negative height, the wallet-side convention) *)
Theorem C05_rcde_not_before_activation : forall sig_ok rcd_hash act h inputs a e,
  inputs <> [] -> Forall (fun x => x = a) inputs ->
  0 <= h <= act -> valid_extids sig_ok rcd_hash act h inputs e = true ->
  exists salt pk sig, re_extids e = [salt; 1 :: pk; sig].
Proof. exact rcde_not_before_activation. Qed.
Print Assumptions C05_rcde_not_before_activation.

(* one RCD-1 signature, one entry: the verified triple determines ExtIDs, chain and content *)
Theorem C05_rcd1_triple_determines_entry : forall sig_ok rcd_hash act h inputs a e e' pk sig,
  inputs <> [] -> Forall (fun x => x = a) inputs ->
  valid_extids sig_ok rcd_hash act h inputs e = true -> valid_extids sig_ok rcd_hash act h inputs e' = true ->
  nth_error (re_extids e) 1 = Some (1 :: pk) -> nth_error (re_extids e') 1 = Some (1 :: pk) ->
  nth_error (re_extids e) 2 = Some sig -> nth_error (re_extids e') 2 = Some sig ->
  signed_message 0 e = signed_message 0 e' ->
  length (re_chain e) = 32%nat -> length (re_chain e') = 32%nat ->
  (forall c r, re_chain e = c :: r -> is_digit c = false) ->
  (forall c r, re_chain e' = c :: r -> is_digit c = false) ->
  re_extids e = re_extids e' /\ re_chain e = re_chain e' /\ re_content e = re_content e'.
Proof. exact rcd1_triple_determines_entry. Qed.
Print Assumptions C05_rcd1_triple_determines_entry.

(* non-vacuity: a toy signature scheme (the signature of a message is 64 copies of its length
   mod 251) and a toy hash; an RCD-1 entry inside the window is accepted, and is rejected one
   second outside it, with a wrong signature byte, and with a foreign RCD *)
Definition toy_sig (ty : Z) (pk msg sg : bytes) : bool :=
  beq sg (repeat (Z.of_nat (length msg) mod 251) 64).
Definition toy_hash (rcd : bytes) : Z := fold_left (fun a c => a * 256 + c) rcd 0.
Definition toy_chain : bytes := 207 :: repeat 7 31.
Definition toy_content : bytes := [123; 125].
Definition toy_rcd1 : bytes := 1 :: repeat 9 32.
Definition toy_entry (salt : bytes) (sg : bytes) (ts : Z) : raw_entry :=
  {| re_chain := toy_chain; re_extids := [salt; toy_rcd1; sg]; re_content := toy_content; re_ts := ts |}.
Definition toy_salt : bytes := [49; 53; 56; 48; 48; 48; 48; 48; 48; 48].   (* 1580000000 *)
Definition toy_good_sig : bytes := repeat ((1 + 10 + 32 + 2) mod 251) 64.

Example C05_example_accepted :
  valid_extids toy_sig toy_hash Fat2RCDEActivation 100 [toy_hash toy_rcd1]
               (toy_entry toy_salt toy_good_sig (1580000000 + 43200)) = true.
Proof. vm_compute. reflexivity. Qed.
Example C05_example_window_edge_rejected :
  valid_extids toy_sig toy_hash Fat2RCDEActivation 100 [toy_hash toy_rcd1]
               (toy_entry toy_salt toy_good_sig (1580000000 + 43201)) = false.
Proof. vm_compute. reflexivity. Qed.
Example C05_example_bad_signature_rejected :
  valid_extids toy_sig toy_hash Fat2RCDEActivation 100 [toy_hash toy_rcd1]
               (toy_entry toy_salt (0 :: repeat 45 63) 1580000000) = false.
Proof. vm_compute. reflexivity. Qed.
Example C05_example_foreign_key_rejected :
  valid_extids toy_sig toy_hash Fat2RCDEActivation 100 [5]
               (toy_entry toy_salt toy_good_sig 1580000000) = false.
Proof. vm_compute. reflexivity. Qed.
