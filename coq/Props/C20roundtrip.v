(* Props/C20roundtrip.v — C20 (b): the canonical encoder and the decoder are inverse.
   Only statements: theorems closed by [exact] (or a line or two), examples by evaluation; proofs live in Lemmas/RoundTripScan.v,
   Lemmas/RoundTripLemmas.v and Lemmas/RoundTripLemmas2.v.

   Hypotheses of the round trip, all boolean except the one on the address oracle:
   * the address codec (an oracle in this model) decodes its own output, and the text it produces
     is [clean_str]: bytes 32..127 without the quote and the backslash — what [print] (which does
     not escape) can put between quotes, what scan_string copies verbatim and unquote leaves alone;
   * [valid_data b]: TransactionBatch.ValidData, which MarshalJSON itself checks first;
   * [batch_in_range b]: the fields have their Go types — amounts are uint64 (the model's are
     unbounded integers) and the conversion field is 0 or a ticker 1..62 (ValidData alone lets an
     out-of-range conversion through next to a zero input amount, and a negative one next to
     transfers; see the counterexamples in Lemmas/RoundTripLemmas2.v). *)
From Coq Require Import ZArith List Bool.
From Model Require Import Codec Db.
From Lemmas Require Import CodecLemmas RoundTripScan RoundTripLemmas RoundTripLemmas2.
From Gen Require Import Consts.
Import ListNotations.
Open Scope Z_scope.

(* strconv.FormatUint / ParseUint on uint64 *)
Theorem C20_decimal_roundtrip : forall n, u64 n = true ->
  all_digits (dec_of n) = true /\ canon_number (dec_of n) = true /\ dec_value (dec_of n) = n /\
  decode_u64 (JNum (dec_of n)) = Some n.
Proof.
  intros n H. exact (conj (dec_of_digits n H) (conj (dec_of_canon n H)
                      (conj (dec_value_dec_of n H) (decode_u64_dec_of n H)))).
Qed.
Print Assumptions C20_decimal_roundtrip.

(* PTicker.String / UnmarshalJSON on 1..62, through both ways the decoder reads a ticker *)
Theorem C20_ticker_roundtrip : forall t, tk t = true ->
  clean_str (ticker_string t) = true /\
  decode_quoted_ticker (JStr (ticker_string t)) = Some t /\
  decode_raw_ticker (JStr (ticker_string t)) = Some t.
Proof. exact ticker_roundtrip. Qed.
Print Assumptions C20_ticker_roundtrip.

(* the parser round trip: on the class the encoder stays in ... *)
Theorem C20_parser_roundtrip : forall v, pr_jv v = true -> parse_json (print v) = Some v.
Proof. exact parse_print. Qed.
Print Assumptions C20_parser_roundtrip.

(* ... and exactly: it holds for v iff every number / string / key of v is a literal the scanner
   accepts whole; every value the parser returns is such a value, so json.Compact is idempotent *)
Theorem C20_parser_roundtrip_exact : forall v, gp_jv v = true <-> parse_json (print v) = Some v.
Proof. exact gp_jv_iff. Qed.
Print Assumptions C20_parser_roundtrip_exact.

Theorem C20_reparse : forall s v, parse_json s = Some v -> parse_json (print v) = Some v.
Proof. exact parse_print_parse. Qed.
Print Assumptions C20_reparse.

Theorem C20_compact_idempotent : forall s c, compact s = Some c -> compact c = Some c.
Proof. exact compact_idempotent. Qed.
Print Assumptions C20_compact_idempotent.

(* tree level, for every batch the encoder can express (weaker than validity) *)
Theorem C20_tree_roundtrip : forall text_of_addr addr_of_text b,
  (forall a, In a (batch_addrs b) -> addr_ok text_of_addr addr_of_text a) ->
  batch_encodable b = true ->
  decode_batch_j addr_of_text (batch_j text_of_addr b) = Some b.
Proof. exact decode_batch_j_rt. Qed.
Print Assumptions C20_tree_roundtrip.

Theorem C20_decode_encode_encodable : forall text_of_addr addr_of_text b,
  (forall a, In a (batch_addrs b) -> addr_ok text_of_addr addr_of_text a) ->
  batch_encodable b = true ->
  decode_batch addr_of_text (Codec.encode text_of_addr b) = Some b.
Proof. exact decode_encode_encodable. Qed.
Print Assumptions C20_decode_encode_encodable.

(* C20 (b) *)
Theorem C20_decode_encode_roundtrip :
  forall (text_of_addr : Z -> bytes) (addr_of_text : bytes -> option Z) (b : batch),
  (forall a, In a (batch_addrs b) ->
     addr_of_text (text_of_addr a) = Some a /\ clean_str (text_of_addr a) = true) ->
  valid_data b = true -> batch_in_range b = true ->
  decode_batch addr_of_text (Codec.encode text_of_addr b) = Some b.
Proof. exact decode_encode_roundtrip. Qed.
Print Assumptions C20_decode_encode_roundtrip.

(* the encoder's output is canonical in the sense of C20 (a) *)
Theorem C20_encode_canonical : forall text_of_addr addr_of_text b,
  (forall a, In a (batch_addrs b) ->
     addr_of_text (text_of_addr a) = Some a /\ clean_str (text_of_addr a) = true) ->
  valid_data b = true -> batch_in_range b = true ->
  canonical_bytes (Codec.encode text_of_addr b) = true.
Proof. exact encode_canonical. Qed.
Print Assumptions C20_encode_canonical.

(* what the decoder returns is always in range, so every ACCEPTED content survives re-encoding *)
Theorem C20_decoded_in_range : forall addr_of_text s b,
  decode_batch addr_of_text s = Some b -> batch_in_range b = true.
Proof. exact decode_batch_range. Qed.
Print Assumptions C20_decoded_in_range.

Theorem C20_reencode_accepted : forall addr_of_text text_of_addr s b,
  decode_batch addr_of_text s = Some b -> valid_data b = true ->
  (forall a, In a (batch_addrs b) ->
     addr_of_text (text_of_addr a) = Some a /\ clean_str (text_of_addr a) = true) ->
  decode_batch addr_of_text (Codec.encode text_of_addr b) = Some b /\
  canonical_bytes (Codec.encode text_of_addr b) = true.
Proof. exact reencode_accepted. Qed.
Print Assumptions C20_reencode_accepted.

Theorem C20_encode_injective : forall text_of_addr addr_of_text b1 b2,
  (forall a, In a (batch_addrs b1 ++ batch_addrs b2) ->
     addr_of_text (text_of_addr a) = Some a /\ clean_str (text_of_addr a) = true) ->
  valid_data b1 = true -> batch_in_range b1 = true -> valid_data b2 = true -> batch_in_range b2 = true ->
  Codec.encode text_of_addr b1 = Codec.encode text_of_addr b2 -> b1 = b2.
Proof. exact encode_injective. Qed.
Print Assumptions C20_encode_injective.

(* non-vacuity and necessity of the hypotheses: the examples at the end of Lemmas/RoundTripLemmas2.v *)
Check roundtrip_hypotheses_satisfiable.
Check roundtrip_instance.
Check no_roundtrip_without_transfers_and_conversion.
Check no_roundtrip_conversion_out_of_range.
Check no_roundtrip_transfers_with_negative_conversion.
Check no_roundtrip_amount_not_uint64.
Check no_roundtrip_unclean_address_text.
Check roundtrip_without_validity.
