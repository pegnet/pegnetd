(* Props/C07.v — Conversions execute later, at the next graded block's rates, exactly.
   Only statements: theorems closed by [exact] (or a line or two), examples by evaluation; proofs live in Lemmas/. *)
From Coq Require Import ZArith List Bool.
From Model Require Import Base Arith.
From Model Require Import Block Examples.
From Model Require Import Ledger.
From Lemmas Require Import ArithLemmas HoldingLemmas NoWinners NoWinnersStatus HistoryLemmas StatusLemmas ExecExact WindowLemmas.
Open Scope Z_scope.

(* The amount credited is floor(input x source rate / destination rate); once averaging is
   active the source rate is min(spot, average), the destination rate max(spot, average);
   the conversion is refused exactly when a rate (or, then, an average) is zero, the amount
   is negative or the quotient does not fit in int64.  For all int64 amounts and all uint64 rates. *)
Theorem C07_convert_exact : forall pip10 amt fr fa tr ta,
  0 <= fr -> 0 <= fa -> 0 <= tr -> 0 <= ta ->
  (convert_defined pip10 amt fr fa tr ta /\
   convert pip10 amt fr fa tr ta = Some ((amt * rate_src pip10 fr fa) / rate_dst pip10 tr ta))
  \/ (~ convert_defined pip10 amt fr fa tr ta /\ convert pip10 amt fr fa tr ta = None).
Proof. exact convert_spec. Qed.
Print Assumptions C07_convert_exact.

Theorem C07_convert_is_floor : forall pip10 amt fr fa tr ta out,
  0 <= fr -> 0 <= fa -> 0 <= tr -> 0 <= ta ->
  convert pip10 amt fr fa tr ta = Some out ->
  let rs := rate_src pip10 fr fa in let rd := rate_dst pip10 tr ta in
  out * rd <= amt * rs < (out + 1) * rd.
Proof. exact convert_floor. Qed.
Print Assumptions C07_convert_is_floor.

(* a conversion never yields more USD value (at the block's spot rates) than was put in *)
Theorem C07_convert_value_nonincreasing : forall pip10 amt fr fa tr ta out,
  0 <= fr -> 0 <= fa -> 0 <= tr -> 0 <= ta ->
  convert pip10 amt fr fa tr ta = Some out -> out * tr <= amt * fr.
Proof. exact convert_value_nonincreasing. Qed.
Print Assumptions C07_convert_value_nonincreasing.

(* A conversion submitted in block h is NOT executed by block h: the batch gets its history rows
   (status pending) and a holding row at h, and no balance moves.  (That a held batch is then
   executed only by a block that has rates, with that block's rates and the averages of the last
   rated height before it, are the theorems below; the chain-level tie replays graded / ungraded
   patterns, including unrated snapshot heights, through the real node.) *)
Theorem C07_conversion_waits_in_holding : forall c h s order e txs s',
  entry_valid_at c e h = Some txs -> has_conversions txs = true ->
  is_replay s (e_hash e) = false -> hist_has s (e_hash e) = false ->
  apply_entry c h s order e = Ok s' ->
  bal s' = bal s /\ holding s' = holding s ++ [{| h_entry := e; h_height := h |}] /\
  exists s1, insert_history s e order h txs = Ok s1.
Proof. exact conversion_waits_in_holding. Qed.
Print Assumptions C07_conversion_waits_in_holding.

(* ... and it is not executed by any later block that has no graded rates either: in a block without winners the
   status of every earlier batch is untouched (the batch-status table only grows), for every block content and every
   committed state.  With C06's window theorems (a rated block looks at exactly the heights since the previous rated
   one) this is "the first later block that has graded rates". *)
Theorem C07_pending_conversion_waits_through_unrated_blocks : forall c cm mem b s' mem' r,
  step_block c cm mem b = Done (s', mem') ->
  (forall g, grade_opr c cm b = Done g -> no_winners g) ->
  (c_V20HeightActivation c <= b_height b -> forall g, grade_spr c cm b = Done g -> no_winners g) ->
  In r (hist cm) -> In r (hist s').
Proof. exact no_winners_pending_stays_pending. Qed.
Print Assumptions C07_pending_conversion_waits_through_unrated_blocks.

(* The positive half.  A block that has graded rates (it records a rate map m for its own height, which was unrated
   before) runs the holding pass with exactly that map m — the block's OWN rates — and with the averages taken at the
   last rated height before it; the recorded rates survive to the end of the block. *)
Theorem C07_rated_block_executes_holding_at_its_own_rates : forall c cm mem b s s' mem' m,
  sync_block c cm mem b s = Done (s', mem') ->
  c_TransactionConversionActivation c <= b_height b ->
  rates s !! b_height b = None -> rates s' !! b_height b = Some m ->
  block_rated c cm b /\ is_empty_map m = false /\
  exists s1 s2,
    let h := b_height b in
    let avgs := fst (get_averages cm (c_AveragePeriod c) mem (last_rated_below s1 h)) in
    rates s1 !! h = Some m /\ rates s1 = <[h := m]> (rates s) /\
    apply_holding c cm h s1 m avgs = Ok s2 /\
    last_rated_below s1 h = last_rated_below s h /\
    mem' = snd (get_averages cm (c_AveragePeriod c) mem (last_rated_below s1 h)) /\
    rates s2 = rates s1 /\ rates s' = rates s1.
Proof. exact sync_block_holding_uses_own_rates. Qed.
Print Assumptions C07_rated_block_executes_holding_at_its_own_rates.
(* ... and in that pass a held conversion that the admission rule lets through is executed exactly: one debit of the
   input, one credit of out = floor(input x source rate / destination rate) computed from the rates and averages the pass
   was given, no other cell of anybody changes, the batch status becomes the executing height and the recorded
   to_amount is out.  (Room: the credited cell stays within int64.) *)
Theorem C07_held_conversion_executes_exactly : forall c cur rates avgs s e hh t out,
  entry_valid_at c e hh = Some [t] -> (exists txs, entry_valid_at c e cur = Some txs) ->
  is_replay s (e_hash e) = false ->
  (c_V20HeightActivation c <=? cur) && has_peg_conversion [t] = false ->
  is_conversion t = true ->
  (c_PegnetConversionLimitActivation c <=? cur) && is_peg_request t = false ->
  check_txs c cur s rates avgs [t] = None -> conv_of c cur rates avgs t = Some out ->
  0 <= rate_of rates (tx_type t) -> 0 <= rate_of avgs (tx_type t) ->
  0 <= rate_of rates (tx_conv t) -> 0 <= rate_of avgs (tx_conv t) ->
  valid_ticker (tx_type t) = true ->
  (tx_amt t = 0 -> get_bal (bal s) (tx_addr t) (tx_type t) <= max_int64) ->
  get_bal (bal s) (tx_addr t) (tx_conv t) - (if tx_conv t =? tx_type t then tx_amt t else 0) + out <= max_int64 ->
  exists s', apply_held c cur rates avgs s e hh = Ok (s', false) /\
    (forall a ty, get_bal (bal s') a ty = get_bal (bal s) a ty
        - (if (a =? tx_addr t) && (ty =? tx_type t) then tx_amt t else 0)
        + (if (a =? tx_addr t) && (ty =? tx_conv t) then out else 0)) /\
    conv_floor_spec c cur rates avgs t out /\
    hist s' = mark_exec (e_hash e) cur (hist s) /\
    Forall (fun x => x = cur) (status_of s' (e_hash e)) /\
    htxs s' = htxs (set_to_amount s (e_hash e) 0 out) /\
    (forall r, In r (htxs s') -> ht_hash r = e_hash e -> ht_index r = 0 -> ht_to_amount r = out) /\
    Db.rates s' = Db.rates s /\ holding s' = holding s /\ is_replay s' (e_hash e) = true /\ bank s' = bank s.
Proof. exact held_conversion_executes_exactly. Qed.
Print Assumptions C07_held_conversion_executes_exactly.

(* "The FIRST later block that has graded rates": if r is the first rated height above g, every height strictly between is
   unrated (those blocks run no holding pass) and no later height's window contains g any more — with
   C06_chain_held_height_exactly_one_block, a batch held at g is looked at by the block at r and by no other block of the chain. *)
Theorem C07_waits_until_the_first_rated_height : forall sf g r k,
  first_rated_above sf g r -> (g < k < r -> rates sf !! k = None) /\ (r < k -> 0 <= r -> ~ In g (window sf k)).
Proof. exact chain_waits_until_first_rated. Qed.
Print Assumptions C07_waits_until_the_first_rated_height.

(* in the example chain the conversion entered at 102 is pending through the unrated block 103 and
   executes at 104 with 104's rates: 20 pFCT at 4 USD -> 80 pUSD *)
Example C07_chain_example :
  exists s m, replay ex_cfg genesis empty_cache ex_chain = Done (s, m) /\
              existsb (fun r => (hb_hash r =? 602) && (hb_height r =? 102) && (hb_exec r =? 104)) (hist s) = true /\
              get_bal (bal s) alice 2 = 80.
Proof. apply BlockLemmas.done_witness. vm_compute. repeat split; reflexivity. Qed.

Example C07_convert_example :
  convert true 1000 300 250 7 9 = Some (1000 * 250 / 9) /\ convert false 1000 300 250 7 9 = Some (1000 * 300 / 7).
Proof. vm_compute. split; reflexivity. Qed.
