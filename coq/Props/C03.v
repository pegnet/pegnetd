(* Props/C03.v — No overdraft; batches are all-or-nothing.
   Only statements: theorems closed by [exact] (or a line or two), examples by evaluation; proofs live in Lemmas/. *)
From Model Require Import Examples.
From Lemmas Require Import DbLemmas LedgerLemmas BlockLemmas ChainLemmas.
From Gen Require Import Consts.
Open Scope Z_scope.

(* No balance is ever negative: for EVERY chain (any number of blocks, any entries, any grader
   verdicts) and every state reached by replaying it from the empty ledger.  This is proved from
   the checks the code performs, not from the CHECK(>= 0) constraint of the table. *)
Theorem C03_no_negative_balance : forall (c : cfg) (chain : list block) (s : db) (m : avgcache),
  replay c genesis empty_cache chain = Done (s, m) -> forall a t, 0 <= get_bal (bal s) a t.
Proof. exact replay_nonneg. Qed.
Print Assumptions C03_no_negative_balance.

(* ... and block by block, from any non-negative committed state *)
Theorem C03_block_preserves_nonneg : forall c cm mem b s' mem',
  nonneg cm -> step_block c cm mem b = Done (s', mem') -> nonneg s'.
Proof. exact step_block_nonneg. Qed.
Print Assumptions C03_block_preserves_nonneg.

(* A batch taken out of holding is applied completely or not at all: whatever happens to it
   (skipped, invalid by now, replay, rejected with any code, dropped), either every balance is
   exactly as it was, or the whole batch was recorded. *)
Theorem C03_held_batch_all_or_nothing : forall c cur rates avgs s e hh s' isp,
  apply_held c cur rates avgs s e hh = Ok (s', isp) ->
  bal s' = bal s \/
  exists txs, entry_valid_at c e hh = Some txs /\ record_batch c cur (e_hash e) rates avgs txs s = Ok s'.
Proof. exact apply_held_all_or_nothing. Qed.
Print Assumptions C03_held_batch_all_or_nothing.

(* The same for a batch arriving in a block. *)
Theorem C03_arriving_batch_all_or_nothing : forall c h s order e s',
  apply_entry c h s order e = Ok s' ->
  bal s' = bal s \/
  exists txs s1, entry_valid_at c e h = Some txs /\ has_conversions txs = false /\ bal s1 = bal s /\
                 record_batch c h (e_hash e) ∅ ∅ txs s1 = Ok s'.
Proof. exact apply_entry_all_or_nothing. Qed.
Print Assumptions C03_arriving_batch_all_or_nothing.

(* A batch that is being recorded never spends more than the input address holds at that moment:
   the first (and, by the recursive structure, every) debit is covered by the current balance. *)
Theorem C03_debit_covered : forall c h hs rates avgs idx t txs s s',
  record_txs c h hs rates avgs idx (t :: txs) s = Ok s' ->
  tx_amt t = 0 \/ tx_amt t < 0 \/ 0 < tx_amt t <= get_bal (bal s) (tx_addr t) (tx_type t).
Proof. exact record_txs_first_debit_covered. Qed.
Print Assumptions C03_debit_covered.

(* non-vacuity: the example chain (burn, transfer, held conversion, a repeated entry, an overdraft
   attempt, a graded block) replays successfully; the overdraft is rejected (-1) and leaves alice's
   balance alone *)
Example C03_example :
  exists s m, replay ex_cfg genesis empty_cache ex_chain = Done (s, m) /\
              get_bal (bal s) alice PTickerFCT = 50 /\ get_bal (bal s) bob PTickerFCT = 30 /\
              get_bal (bal s) alice PTickerUSD = 80 /\
              existsb (fun r => (hb_hash r =? 603) && (hb_exec r =? -1)) (hist s) = true.
Proof. apply BlockLemmas.done_witness. vm_compute. repeat split; reflexivity. Qed.
