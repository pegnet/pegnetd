(* Props/C20.v — Canonical encoding and exact amounts at the edges.
   Only statements: theorems closed by [exact] (or a line or two), examples by evaluation; proofs live in Lemmas/. *)
From Coq Require Import ZArith List Bool.
From Model Require Import Base Decimal.
From Lemmas Require Import DecimalLemmas.
Open Scope Z_scope.

(* Human-readable amounts are converted to base units exactly or rejected, never silently
   altered: for EVERY byte string s. *)
Theorem C20_factoshi_exact_or_rejected : forall (s : list Z) (v : Z),
  factoid_to_factoshi s = Some v ->
  amount_syntax_ok s = true /\ exact_units s = Some v /\ 0 <= v <= max_uint64.
Proof. exact factoshi_sound. Qed.
Print Assumptions C20_factoshi_exact_or_rejected.

(* ... and nothing representable is refused. *)
Theorem C20_factoshi_accepts_all_representable : forall (s : list Z) (v : Z),
  amount_syntax_ok s = true -> exact_units s = Some v -> v <= max_uint64 ->
  factoid_to_factoshi s = Some v.
Proof. exact factoshi_complete. Qed.
Print Assumptions C20_factoshi_accepts_all_representable.

(* non-vacuity: an accepted string with a fractional part *)
Example C20_factoshi_example :
  factoid_to_factoshi [49;50;46;53] = Some 1250000000.   (* "12.5" *)
Proof. vm_compute. reflexivity. Qed.
Example C20_factoshi_example_reject :
  factoid_to_factoshi [49;56;52;52;54;55;52;52;48;55;51;56] = None.   (* "184467440738" *)
Proof. vm_compute. reflexivity. Qed.
