(* Props/C13.v — Conversion admission rules by height.
   Only statements: theorems closed by [exact] (or a line or two), examples by evaluation; proofs live in Lemmas/. *)
From Model Require Import Examples.
From Lemmas Require Import AdmissionLemmas LedgerLemmas HistoryLemmas ExecExact.
From Gen Require Import Consts.
Open Scope Z_scope.

(* The decision taken for a conversion when its batch comes out of holding at height h, for every
   state, every pair of assets, every rate and average pattern: insufficient funds (-1), a zero
   rate (-4), destination pFCT from OneWaypFCTConversions on (-3), destination PEG or a small-cap
   asset from OneWaySmallAssetsConversions on (-5), unconvertible (average unavailable from PIP-10
   on, or the result does not fit int64: dropped), otherwise let through. *)
Theorem C13_rule : forall c h s rates avgs t,
  is_conversion t = true -> is_empty_map rates = false ->
  check_txs c h s rates avgs [t] =
    if get_bal (bal s) (tx_addr t) (tx_type t) <? tx_amt t then Some (BRejected (-1))
    else if zero_rate rates t then Some (BRejected (-4))
    else if oneway_pfct c h t then Some (BRejected (-3))
    else if oneway_small c h t then Some (BRejected (-5))
    else match conv_of c h rates avgs t with None => Some BDropped | Some _ => None end.
Proof. exact admission_rule. Qed.
Print Assumptions C13_rule.

(* any conversion into PEG is refused from 2.0 on, with code -2, before anything else is looked at *)
Theorem C13_peg_refused_from_v20 : forall c cur rates avgs s e hh txs,
  entry_valid_at c e hh = Some txs -> c_V20HeightActivation c <= cur -> has_peg_conversion txs = true ->
  apply_held c cur rates avgs s e hh = Ok (set_executed s (e_hash e) (-2), false).
Proof. exact peg_conversion_refused_from_v20. Qed.
Print Assumptions C13_peg_refused_from_v20.

(* every conversion that is let through is executed (its batch recorded), never rejected *)
Theorem C13_let_through_is_recorded : forall c h s hs rates avgs t,
  is_conversion t = true -> check_txs c h s rates avgs [t] = None ->
  apply_batch c h s hs [t] rates avgs =
    match record_batch c h hs rates avgs [t] s with Ok s' => BApplied s' | Fail code => BFail code | Panic code => BFail code end.
Proof. exact accepted_conversion_is_recorded. Qed.
Print Assumptions C13_let_through_is_recorded.

(* "Every other well-formed conversion with sufficient funds is executed": when the rule lets a conversion through and it
   can be priced (out), the batch IS applied — never rejected, never a failed block — with exactly one debit and one
   credit of out = floor(input x source / destination) and no other balance touched; the side condition is only that the
   credited cell stays within int64 (and it is necessary: single_conversion_room_necessary). *)
Theorem C13_admissible_conversion_is_executed : forall c h s hs rates avgs t out,
  is_conversion t = true ->
  (c_PegnetConversionLimitActivation c <=? h) && is_peg_request t = false ->
  check_txs c h s rates avgs [t] = None ->
  conv_of c h rates avgs t = Some out ->
  0 <= rate_of rates (tx_type t) -> 0 <= rate_of avgs (tx_type t) ->
  0 <= rate_of rates (tx_conv t) -> 0 <= rate_of avgs (tx_conv t) ->
  conv_room s t out ->
  exists s',
    apply_batch c h s hs [t] rates avgs = BApplied s' /\
    (forall a ty, get_bal (bal s') a ty = get_bal (bal s) a ty
        - (if (a =? tx_addr t) && (ty =? tx_type t) then tx_amt t else 0)
        + (if (a =? tx_addr t) && (ty =? tx_conv t) then out else 0)) /\
    conv_floor_spec c h rates avgs t out /\
    hist s' = mark_exec hs h (hist s) /\
    htxs s' = htxs (set_to_amount s hs 0 out) /\
    Db.rates s' = Db.rates s /\ holding s' = holding s /\ is_replay s' hs = true /\ bank s' = bank s.
Proof. exact single_conversion_executes_exactly. Qed.
Print Assumptions C13_admissible_conversion_is_executed.
Example C13_admissible_hypotheses_hold_somewhere :
  let t := {| tx_addr := alice; tx_type := PTickerUSD; tx_amt := 10; tx_transfers := []; tx_conv := PTickerFCT |} in
  let s := set_bal empty_db {[ (alice, PTickerUSD) := 100 ]} in
  let rates : gmap ticker Z := {[ PTickerUSD := 100000000; PTickerFCT := 400000000 ]} in
  check_txs ex_cfg 99 s rates rates [t] = None /\ conv_of ex_cfg 99 rates rates t = Some 2.
Proof. vm_compute. split; reflexivity. Qed.

(* ... and a refused one leaves every balance untouched (C03's all-or-nothing) *)
Theorem C13_refused_is_inert : forall c cur rates avgs s e hh s' isp,
  apply_held c cur rates avgs s e hh = Ok (s', isp) ->
  bal s' = bal s \/ exists txs, entry_valid_at c e hh = Some txs /\ record_batch c cur (e_hash e) rates avgs txs s = Ok s'.
Proof. exact apply_held_all_or_nothing. Qed.
Print Assumptions C13_refused_is_inert.

(* the one-way sets regenerated from the source are the protocol's *)
Example C13_oneway_sets_from_source :
  oneway_pfct_dests = [23] /\ oneway_small_dests = [1; 21; 30; 41; 43; 47; 48; 51; 52; 56; 57; 58; 59; 60; 61; 62].
Proof. split; reflexivity. Qed.
Example C13_example :
  let t := {| tx_addr := alice; tx_type := PTickerUSD; tx_amt := 10; tx_transfers := []; tx_conv := PTickerFCT |} in
  let s := set_bal empty_db {[ (alice, PTickerUSD) := 100 ]} in
  let rates : gmap ticker Z := {[ PTickerUSD := 100000000; PTickerFCT := 400000000 ]} in
  check_txs ex_cfg 99 s rates rates [t] = None /\ check_txs ex_cfg 100 s rates rates [t] = Some (BRejected (-3)).
Proof. vm_compute. split; reflexivity. Qed.
